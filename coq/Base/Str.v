(* Base/Str.v — strings as lists of code points, decimal printing and its inverse, small helpers on lists.
   char = N: a Unicode code point (or a UTF-8 byte: every character the library treats specially is
   ASCII, and str.replace / concatenation on ASCII characters commute with UTF-8 encoding, so the
   model is faithful under either reading).  No proofs about the library here. *)
From Coq Require Export Ascii String.
From Coq Require Export List NArith ZArith Bool.   (* after String: List.length etc. win *)
From Coq Require Import Decimal DecimalFacts DecimalN Lia.
Export ListNotations.
Open Scope N_scope.

Definition char := N.
Definition str := list char.

(* Coq string literal -> str (used by generated files and by the model for keywords) *)
Fixpoint L (s : string) : str :=
  match s with
  | EmptyString => []
  | String a r => N_of_ascii a :: L r
  end.

Arguments L s%string.

Definition ceqb (a b : char) : bool := N.eqb a b.
Fixpoint seqb (a b : str) : bool :=
  match a, b with
  | [], [] => true
  | x :: a', y :: b' => N.eqb x y && seqb a' b'
  | _, _ => false
  end.

Lemma seqb_eq a b : seqb a b = true <-> a = b.
Proof.
  revert b; induction a as [|x a IH]; intros [|y b]; simpl; split; intro H; try congruence.
  - apply andb_true_iff in H as [H1 H2]. apply N.eqb_eq in H1. apply IH in H2. congruence.
  - inversion H; subst. rewrite N.eqb_refl. apply IH. reflexivity.
Qed.

Lemma seqb_refl a : seqb a a = true.
Proof. apply seqb_eq. reflexivity. Qed.

Definition flat {A} (l : list (list A)) : list A := List.concat l.

Lemma list_case_same {A B} (l : list A) (x : B) : match l with [] => x | _ :: _ => x end = x.
Proof. destruct l; reflexivity. Qed.
Lemma existsb_ext {A} (f g : A -> bool) l : (forall x, f x = g x) -> existsb f l = existsb g l.
Proof. intro H. induction l as [|x l IH]; [reflexivity|]. cbn [existsb]. rewrite H, IH. reflexivity. Qed.
Lemma forallb_ext {A} (f g : A -> bool) l : (forall x, f x = g x) -> forallb f l = forallb g l.
Proof. intro H. induction l as [|x l IH]; [reflexivity|]. cbn [forallb]. rewrite H, IH. reflexivity. Qed.
Lemma existsb_flat_map {A B} (f : B -> bool) (g : A -> list B) l : existsb f (flat (map g l)) = existsb (fun x => existsb f (g x)) l.
Proof. induction l as [|x l IH]; [reflexivity|]. unfold flat in *. cbn [map concat existsb]. rewrite existsb_app, IH. reflexivity. Qed.
Lemma existsb_filter {A} (p f : A -> bool) l : existsb f (filter p l) = existsb (fun x => p x && f x) l.
Proof. induction l as [|x l IH]; [reflexivity|]. cbn [filter existsb]. destruct (p x); cbn [existsb andb orb]; rewrite IH; reflexivity. Qed.
Lemma existsb_andb_l {A} (b : bool) (f : A -> bool) l : existsb (fun x => b && f x) l = b && existsb f l.
Proof. destruct b; [reflexivity|]. induction l; [reflexivity | assumption]. Qed.
Lemma forallb_negb {A} (f : A -> bool) l : forallb (fun x => negb (f x)) l = negb (existsb f l).
Proof. induction l as [|x l IH]; [reflexivity|]. cbn [forallb existsb]. rewrite IH, negb_orb. reflexivity. Qed.
Lemma forallb_map {A B} (f : B -> bool) (g : A -> B) l : forallb f (map g l) = forallb (fun x => f (g x)) l.
Proof. induction l as [|x l IH]; [reflexivity|]. cbn [map forallb]. rewrite IH. reflexivity. Qed.
Lemma forallb_flat_map {A B} (f : B -> bool) (g : A -> list B) l : forallb f (flat (map g l)) = forallb (fun x => forallb f (g x)) l.
Proof. induction l as [|x l IH]; [reflexivity|]. unfold flat in *. cbn [map concat forallb]. rewrite forallb_app, IH. reflexivity. Qed.

Fixpoint join (sep : str) (l : list str) : str :=
  match l with
  | [] => []
  | [x] => x
  | x :: r => x ++ sep ++ join sep r
  end.

(* Python: s.replace(q, q*2) for a one-character q; the empty quote char is handled by the callers. *)
Fixpoint dbl (q : char) (s : str) : str :=
  match s with
  | [] => []
  | c :: r => if N.eqb c q then q :: q :: dbl q r else c :: dbl q r
  end.

Lemma dbl_app q a b : dbl q (a ++ b) = dbl q a ++ dbl q b.
Proof. induction a as [|c a IH]; [reflexivity|]. cbn [List.app dbl]. rewrite IH. destruct (c =? q); reflexivity. Qed.

Definition c_sq : char := 39.   (* single quote *)
Definition c_dq : char := 34.   (* double quote *)
Definition c_bt : char := 96.   (* backtick *)
Definition c_bs : char := 92.   (* backslash *)
Definition c_sp : char := 32.
Definition c_minus : char := 45.
Definition c_dot : char := 46.
Definition c_colon : char := 58.
Definition c_0 : char := 48.

Definition is_digit (c : char) : bool := (48 <=? c) && (c <=? 57).
Definition is_nzdigit (c : char) : bool := (49 <=? c) && (c <=? 57).
Definition is_alpha (c : char) : bool :=
  ((65 <=? c) && (c <=? 90)) || ((97 <=? c) && (c <=? 122)) || (c =? 95) || (128 <=? c).
Definition is_word (c : char) : bool := is_alpha c || is_digit c || (c =? 36).
Definition is_space (c : char) : bool := (c =? 32) || (c =? 9) || (c =? 10) || (c =? 13).

(* decimal printing: Python's str(int) *)
Fixpoint uint_to_str (d : Decimal.uint) : str :=
  match d with
  | Nil => []
  | D0 d => 48 :: uint_to_str d | D1 d => 49 :: uint_to_str d | D2 d => 50 :: uint_to_str d
  | D3 d => 51 :: uint_to_str d | D4 d => 52 :: uint_to_str d | D5 d => 53 :: uint_to_str d
  | D6 d => 54 :: uint_to_str d | D7 d => 55 :: uint_to_str d | D8 d => 56 :: uint_to_str d
  | D9 d => 57 :: uint_to_str d
  end.

Definition N_to_str (n : N) : str := uint_to_str (N.to_uint n).
Definition Z_to_str (z : Z) : str :=
  match z with
  | Z0 => [48]
  | Zpos p => N_to_str (Npos p)
  | Zneg p => 45 :: N_to_str (Npos p)
  end.

(* reading a decimal: the specification-side inverse *)
Definition digit_val (c : char) : N := c - 48.
Fixpoint read_dec_acc (acc : N) (s : str) : option N :=
  match s with
  | [] => Some acc
  | c :: r => if is_digit c then read_dec_acc (acc * 10 + digit_val c) r else None
  end.
Definition read_dec (s : str) : option N :=
  match s with [] => None | _ => read_dec_acc 0 s end.

Definition all_digits (s : str) : bool := forallb is_digit s.

Lemma uint_to_str_digits d : all_digits (uint_to_str d) = true.
Proof. induction d; simpl; auto. Qed.

Lemma N_to_str_digits n : all_digits (N_to_str n) = true.
Proof. apply uint_to_str_digits. Qed.

Lemma N_to_uint_norm n : unorm (N.to_uint n) = N.to_uint n.
Proof. rewrite <- (DecimalN.Unsigned.of_to n) at 2. rewrite DecimalN.Unsigned.to_of. reflexivity. Qed.

Lemma N_to_str_0 : N_to_str 0 = [48].
Proof. reflexivity. Qed.

(* a normalised numeral other than zero prints with a first digit 1..9: nzhead left no leading zero *)
Lemma uint_to_str_nz d : unorm d = d -> d <> zero -> exists c r, uint_to_str d = c :: r /\ is_nzdigit c = true.
Proof.
  unfold unorm. generalize (nzhead_nonzero d).
  destruct (nzhead d) as [|u|u|u|u|u|u|u|u|u|u]; intros H0 <- Hz;
    [congruence | destruct (H0 u eq_refl) | cbn [uint_to_str]; eauto ..].
Qed.

Lemma N_to_str_nz n : n <> 0 -> exists c r, N_to_str n = c :: r /\ is_nzdigit c = true.
Proof.
  intro Hn. apply uint_to_str_nz; [apply N_to_uint_norm|].
  intro E. apply Hn, DecimalN.Unsigned.to_uint_inj, E.
Qed.

(* read_dec_acc follows Pos.of_uint_acc digit by digit; from 0 both skip the leading zeros *)
Lemma read_dec_acc_pos d acc : read_dec_acc (Npos acc) (uint_to_str d) = Some (Npos (Pos.of_uint_acc d acc)).
Proof.
  revert acc; induction d; intro acc; cbn [uint_to_str read_dec_acc Pos.of_uint_acc]; [reflexivity | ..];
    change (is_digit _) with true; rewrite <- IHd; f_equal; unfold digit_val; lia.
Qed.

Lemma read_dec_acc_uint d : read_dec_acc 0 (uint_to_str d) = Some (N.of_uint d).
Proof.
  induction d; cbn [uint_to_str read_dec_acc N.of_uint Pos.of_uint]; [reflexivity | exact IHd | ..]; apply read_dec_acc_pos.
Qed.

Lemma uint_to_str_nonnil d : d <> Nil -> uint_to_str d <> [].
Proof. destruct d; simpl; congruence. Qed.

Lemma N_to_str_nonnil n : N_to_str n <> [].
Proof.
  unfold N_to_str. apply uint_to_str_nonnil. rewrite <- N_to_uint_norm. apply unorm_nonnil.
Qed.

Lemma N_to_str_cons n : exists c r, N_to_str n = c :: r /\ is_digit c = true /\ all_digits r = true.
Proof.
  pose proof (N_to_str_digits n) as Hd. pose proof (N_to_str_nonnil n) as Hn.
  destruct (N_to_str n) as [|c r]; [congruence|]. apply andb_true_iff in Hd. eauto.
Qed.

Lemma read_dec_N_to_str n : read_dec (N_to_str n) = Some n.
Proof.
  unfold read_dec. pose proof (N_to_str_nonnil n) as Hnn.
  destruct (N_to_str n) eqn:E; [congruence|]. rewrite <- E. unfold N_to_str.
  rewrite read_dec_acc_uint. f_equal. apply DecimalN.Unsigned.of_to.
Qed.
