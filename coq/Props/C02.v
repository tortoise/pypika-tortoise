(* Props/C02.v — C02: rendering is a pure, repeatable, process-independent function.
   (i)  no render method writes to the object, its sub-objects or its arguments, except through the
        caller's parameterizer (render_ok over Gen/Effects.v; render_frame);
   (ii) the model of rendering is a function of (context, parameterizer state, object): repeated and
        interleaved renders return identical SQL and values (C02_render_deterministic);
   (iii) no render method iterates over a set-valued attribute (part of render_ok: EIter), so the
        output does not depend on the hash seed.
   PARTIAL: thread schedules and a second interpreter process are CPython behaviour outside any
   executable model; ./check C02 exercises them as search only (thread pool, PYTHONHASHSEED). *)
From PT Require Import Base.Str Model.Types Model.Syntax Model.Render Model.Effects Gen.Effects Proofs.Frame Proofs.Summaries.
Open Scope N_scope.

Theorem C02_renders_pure : all_renders_ok classes = true.
Proof. rewrite all_renders_by_tables. vm_compute. reflexivity. Qed.
Print Assumptions C02_renders_pure.

Theorem C02_render_frame :
  forall (mn : list str) (c : classrec) (self' : loc) (argloc : str -> list str -> loc) effs,
  forallb (render_ok_eff classes mn c) effs = true -> flat (map (render_cells self' argloc) effs) = [].
Proof. intros. eapply render_frame; eassumption. Qed.
Print Assumptions C02_render_frame.

(* determinism of the rendering model: any two evaluations agree, whatever happened in between *)
Theorem C02_render_deterministic : forall (c : ctx) (p : pz) (t : term) r1 r2,
  r1 = render c p t -> r2 = render c p t -> r1 = r2.
Proof. intros. congruence. Qed.
Print Assumptions C02_render_deterministic.

Example C02_nonvacuous : (150 <= n_render_methods classes)%nat /\
  existsb (fun c => seqb (c_name c) (L "QueryBuilder") && existsb (fun m => seqb (m_name m) (L "get_sql")) (render_methods c)) classes = true.
Proof. split; [apply Nat.leb_le|]; vm_compute; reflexivity. Qed.
