(* Props/C08.v — C08: one dialect's conventions govern the whole statement tree.

   Judged on implementation outputs by ./check C08: (A) relational - a statement of class D whose nested parts are built with the generic
   classes renders exactly as the one whose nested parts are built with D; (B) Ref.Dialect.cross_ok in Coq - the token streams of one neutral
   program under two classes are equal after normalising quote character, placeholder style and set-operand wrapping.

   Proved here on the model: every context modifier the renderers use preserves the dialect conventions of the context (so a nested part can
   only ever see the conventions of the statement it is rendered in); for all six classes D and ALL names / values, a SELECT built with the
   generic class nested in a D statement (as FROM source, IN operand, set operand) renders exactly as the same SELECT built with D; and the
   rendering of a neutral statement is ONE text function of the class's quote character. *)
From PT Require Import Base.Str Model.Types Model.Value Model.Syntax Gen.Ctx Model.Render Ref.Dialect Proofs.ClassFree Proofs.TextEq.
Open Scope N_scope.

(* the conventions a context carries *)
Definition conv (c : ctx) := (dialect c, quote_char c, secondary_quote_char c, alias_quote_char c).

Theorem C08_modifiers_preserve_conventions : forall b c,
  conv (set_subquery b c) = conv c /\ conv (set_with_alias b c) = conv c /\ conv (set_with_namespace b c) = conv c /\
  conv (set_subcriterion b c) = conv c /\ conv (set_groupby_alias b c) = conv c /\ conv (set_as_keyword b c) = conv c.
Proof. repeat split. Qed.

(* (A) a generic inner statement follows the statement it is nested in *)
Definition tb (n : str) : tref := MkTRef true n [] None 0.
Definition col (n : str) (r : tref) : term := TField n (Some r) None.
Definition fl0 (cls : bcls) (al : option str) : qflags :=
  MkFl al false false false false false false false false false false false false (wrap_set_ops_of cls) [] [] None (wrapper_of cls).
(* SELECT c1 "x", <v> FROM t WHERE c2 = <w> GROUP BY c1 "x" ORDER BY c3 *)
Definition inner (cls : bcls) (al : option str) (tn c1 c2 c3 x : str) (v w : value) (iv iw : str) : query :=
  let t := tb tn in
  MkQ cls (fl0 cls al) (TCons (TTable t NoT NoT) TNil) WNil (TCons (TField c1 (Some t) (Some x)) (TCons (TVal (wrapper_of cls) v iv None true) TNil)) TNil TNil TNil RNil
      (SomeT (TBasic (CEq Eq) (col c2 t) (TVal WPlain w iw None true) None)) NoT NoT
      (GCons (TField c1 (Some t) (Some x)) (SomeT (TField c1 (Some t) (Some x))) GNil) (OCons (col c3 t) None ONil) JNil NoT NoT UNil NoT NoT TNil CUNil NoT NoT TNil TNil.
Definition outer_from (cls : bcls) (i : query) : term :=
  TQuery (MkQ cls (fl0 cls None) (TCons (TQuery i) TNil) WNil (TCons (TStar None None) TNil) TNil TNil TNil RNil NoT NoT NoT GNil ONil JNil NoT NoT UNil NoT NoT TNil CUNil NoT NoT TNil TNil).
Definition outer_in (cls : bcls) (i : query) : term :=
  let o := tb (L "o") in
  TQuery (MkQ cls (fl0 cls None) (TCons (TTable o NoT NoT) TNil) WNil (TCons (col (L "a") o) TNil) TNil TNil TNil RNil
     (SomeT (TContains (col (L "a") o) (TQuery i) false None)) NoT NoT GNil ONil JNil NoT NoT UNil NoT NoT TNil CUNil NoT NoT TNil TNil).
Definition outer_setop (cls : bcls) (i : query) : term :=
  let o := tb (L "o") in
  TSetOp (MkQ cls (fl0 cls None) (TCons (TTable o NoT NoT) TNil) WNil (TCons (col (L "a") o) (TCons (col (L "b") o) TNil)) TNil TNil TNil RNil
            NoT NoT NoT GNil ONil JNil NoT NoT UNil NoT NoT TNil CUNil NoT NoT TNil TNil)
         (SCons Union (TQuery i) SNil) ONil NoT NoT None.

(* the wrapper class a builder installs differs between the generic and the SQLite / MySQL classes (SELECT true vs SELECT 1: known finding
   C08-wrapper-by-builder-class); for a value both wrappers print alike the inner statements coincide *)
Definition wrapper_agnostic (v : value) : Prop := forall w my q, value_sql w my q v = value_sql WPlain my q v.

Theorem C08_generic_inner_follows_outer : forall D tn c1 c2 c3 x v w iv iw,
  wrapper_agnostic v ->
  let gi := inner BGeneric (Some (L "sq")) tn c1 c2 c3 x v w iv iw in
  let di := inner D (Some (L "sq")) tn c1 c2 c3 x v w iv iw in
  render (ctx_of D) None (outer_from D gi) = render (ctx_of D) None (outer_from D di) /\
  render (ctx_of D) None (outer_in D gi) = render (ctx_of D) None (outer_in D di) /\
  render (ctx_of D) None (outer_setop D gi) = render (ctx_of D) None (outer_setop D di).
Proof.
  intros D tn c1 c2 c3 x v w iv iw Hv gi di.
  destruct D; (split; [|split]; lazy -[dbl app value_sql]).
  (* the MySQL and the SQLite builder print v through their own wrapper class *)
  4-6: rewrite (Hv WMySQL). 10-12: rewrite (Hv WSQLite).
  all: reflexivity.
Qed.
Print Assumptions C08_generic_inner_follows_outer.

(* (B) a neutral statement is one text function of the quote character *)
Definition neutral (cls : bcls) (tn un c1 c2 c3 c4 : str) : query :=
  let t := tb tn in let u := tb un in
  MkQ cls (fl0 cls None) (TCons (TTable t NoT NoT) TNil) WNil (TCons (col c1 t) (TCons (col c2 u) TNil)) TNil TNil TNil RNil
      (SomeT (TBasic (CEq Gt) (col c3 t) (TVal WPlain (VInt 5) (L "int:5") None true) None)) NoT NoT GNil (OCons (col c4 u) (Some Desc) ONil)
      (JCons (JOn (TTable u NoT NoT) JLeft (TBasic (CEq Eq) (col c1 t) (col c2 u) None) None) JNil) NoT NoT UNil NoT NoT TNil CUNil NoT NoT TNil TNil.
Definition neutral_text (q : str) (tn un c1 c2 c3 c4 : str) : str :=
  let i n := fquote q n in let f tnm n := i tnm ++ [46] ++ i n in
  L "SELECT " ++ f tn c1 ++ L "," ++ f un c2 ++ L " FROM " ++ i tn ++ L " LEFT JOIN " ++ i un ++ L " ON " ++ f tn c1 ++ L "=" ++ f un c2 ++
  L " WHERE " ++ f tn c3 ++ L ">5 ORDER BY " ++ f un c4 ++ L " DESC".
Theorem C08_neutral_is_a_function_of_the_quote : forall cls tn un c1 c2 c3 c4,
  render (ctx_of cls) None (TQuery (neutral cls tn un c1 c2 c3 c4)) = Ok (neutral_text (quote_char (ctx_of cls)) tn un c1 c2 c3 c4, None).
Proof. intros. destruct cls; lazy -[dbl app]; text_eq. Qed.
Print Assumptions C08_neutral_is_a_function_of_the_quote.

(* which builder class built a SELECT does not matter to its text - for EVERY statement of the model that uses none of the class-specific
   features (row limit, TOP, MySQL modifiers, DISTINCT ON, upsert, RETURNING; class_free), every context and parameterizer state: the quote
   characters, placeholder style, literal forms, set-operand wrapping and GROUP BY alias policy all come from the CONTEXT it is rendered in.
   (SQL Server / Oracle builders switch the GROUP BY alias policy off themselves: for them the statement holds where it already is off, as it
   is everywhere inside a statement of those classes.)  Applied at every nesting level, this is "parts built with the generic classes follow
   the dialect of the statement they are nested in". *)
Theorem C08_builder_class_irrelevant : forall (D D' : bcls) (q : query) (c : ctx) (p : pz),
  class_free q = true ->
  (adjusts D || adjusts D' = true -> groupby_alias c = false) ->
  render_query c p (with_cls D q) = render_query c p (with_cls D' q).
Proof. exact builder_class_irrelevant. Qed.
Print Assumptions C08_builder_class_irrelevant.

Example C08_class_free_nonvacuous :
  let t := MkTRef true (L "t") [] None 0 in
  let q := MkQ BGeneric (MkFl None false false true false false false false false false false false false true [] [] None WPlain)
             (TCons (TTable t NoT NoT) TNil) WNil (TCons (TField (L "a") (Some t) (Some (L "x"))) TNil) TNil TNil TNil RNil
             (SomeT (TBasic (CEq Eq) (TField (L "b") (Some t) None) (TVal WPlain (VStr (L "v")) (L "v1") None true) None))
             NoT NoT (GCons (TField (L "a") (Some t) (Some (L "x"))) (SomeT (TField (L "a") (Some t) (Some (L "x")))) GNil) ONil JNil NoT NoT UNil NoT NoT TNil CUNil NoT NoT TNil TNil in
  class_free q = true /\
  render_query (ctx_of BMySQL) None (with_cls BPostgreSQL q) = Ok (L "SELECT DISTINCT `a` `x` FROM `t` WHERE `b`='v' GROUP BY `x`", None).
Proof. vm_compute. split; reflexivity. Qed.

Example C08_cross_nonvacuous :
  cross_ok MYSQL (L "SELECT `t`.`a` FROM `t` WHERE `t`.`b`=%s UNION SELECT `u`.`a` FROM `u`") POSTGRESQL
           (L "(SELECT ""t"".""a"" FROM ""t"" WHERE ""t"".""b""=$1) UNION (SELECT ""u"".""a"" FROM ""u"")") = Some true /\
  cross_ok MYSQL (L "SELECT `t`.`a` FROM `t`") SQLITE (L "SELECT ""t"".""a"" FROM ""T""") = Some false.
Proof. vm_compute. split; reflexivity. Qed.
