(* Props/C07.v — C07: user-supplied names are emitted as single, correctly quoted identifiers.

   Statement judged on every implementation output by ./check C07 (Ref/Align.v, twin_ok): the text rendered with
   the actual names reads, token for token, as the text rendered with harmless marker names in which every marker
   identifier token is replaced by ONE quoted-identifier token denoting exactly the actual name; a name written
   bare or inside another dialect's quotes fails.

   Proved here for ALL names, about the model of format_quotes / format_alias_sql with the quote characters
   regenerated from /repo (Gen/Ctx.v): *)
From PT Require Import Base.Str Model.Types Model.Value Model.Syntax Gen.Ctx Model.Render Ref.Lexer Ref.Align Proofs.LexQuoted Proofs.LexLit Proofs.TextEq.
Open Scope N_scope.

(* the identifier quote and the alias quote of every query class open an identifier in that class's dialect *)
Lemma C07_quote_chars : forall b,
  exists q, quote_char (ctx_of b) = [q] /\ opens (lexcfg_of (dialect (ctx_of b))) q = Some KId /\
  exists a, alias_q (ctx_of b) = [a] /\ opens (lexcfg_of (dialect (ctx_of b))) a = Some KId.
Proof. destruct b; eexists; (split; [reflexivity|]); (split; [reflexivity|]); eexists; split; reflexivity. Qed.

(* every name, under every query class: one identifier token denoting exactly that name *)
Theorem C07_ident : forall b name,
  lex (dialect (ctx_of b)) (fquote (quote_char (ctx_of b)) name) = Some [TQId name] /\
  lex (dialect (ctx_of b)) (fquote (alias_q (ctx_of b)) name) = Some [TQId name].
Proof.
  intros b name. destruct (C07_quote_chars b) as (q & Eq & Hq & a & Ea & Ha).
  rewrite Eq, Ea. unfold lex. split; apply ident_roundtrip; assumption.
Qed.
Print Assumptions C07_ident.

(* ... whatever precedes and follows it *)
Theorem C07_in_context : forall b st out' name c rest,
  pending st = Some out' ->
  forall q, quote_char (ctx_of b) = [q] -> c <> q ->
  run (lexcfg_of (dialect (ctx_of b))) st (fquote [q] name ++ c :: rest) =
  run (lexcfg_of (dialect (ctx_of b))) (start (lexcfg_of (dialect (ctx_of b))) (TQId name :: out') c) rest.
Proof.
  intros b st out' name c rest Hp q Eq Hc.
  destruct (C07_quote_chars b) as (q' & Eq' & Hq & _). rewrite Eq in Eq'. inversion Eq'; subst q'.
  apply (quoted_in_context _ st out' q KId name c rest Hp Hq); [apply dbl_bs_no_issue_id|exact Hc].
Qed.

(* a site, on the model of the renderers *)
Definition tref_plain (name : str) : tref := MkTRef true name [] None 0.

(* qualified column: "t"."a" is identifier, dot, identifier - for all table and column names *)
Theorem C07_qualified_field : forall b tname fname,
  match render (set_with_namespace true (ctx_of b)) None (TField fname (Some (tref_plain tname)) None) with
  | Ok (s, _) => lex (dialect (ctx_of b)) s = Some [TQId tname; TOp [46]; TQId fname]
  | Exn _ => False
  end.
Proof.
  intros b tname fname.
  destruct (C07_quote_chars b) as (q & Eq & Hq & _).
  assert (Ha : with_alias (ctx_of b) = false) by (destruct b; reflexivity).
  cbn [render set_with_namespace with_namespace with_alias quote_char dialect orb]. rewrite Eq, Ha.
  cbn [alias_if qualifier tref_plain tr_istable tr_alias tr_name str_truthy].
  unfold lex, lexc.
  assert (Hdot : 46 <> q) by (destruct (opens_cases _ _ _ Hq) as [->|[->| ->]]; discriminate).
  change ([46] ++ fquote [q] fname) with (46 :: fquote [q] fname).
  rewrite (quoted_in_context _ (MNorm, []) [] q KId tname 46 _ eq_refl Hq (dbl_bs_no_issue_id _ _) Hdot).
  (* the dot opens an operator whatever the dialect: start _ [TQId tname] 46 computes to (MOp [46], [TQId tname]) *)
  exact (quoted_at_end _ (MOp [46], [TQId tname]) [TOp [46]; TQId tname] q KId fname eq_refl Hq (dbl_bs_no_issue_id _ _)).
Qed.
Print Assumptions C07_qualified_field.

(* regression witness: without doubling, a name holding the quote character is not read back as one token *)
Example C07_undoubled_refuted :
  lex SQLITE (34 :: L "we" ++ [34] ++ L "ird" ++ [34]) <> Some [TQId (L "we" ++ [34] ++ L "ird")].
Proof. exact lex_undoubled_refuted. Qed.

(* known finding: a CTE name is written bare where it is defined and referenced *)
Definition cte_witness : term :=
  TQuery (MkQ BGeneric (MkFl None false false false false false false false false false false false false true [] [] None WPlain)
     (TCons (TAliased (L "my cte") NoT) TNil)
     (WCons (L "my cte") (TQuery (MkQ BGeneric (MkFl None false false false false false false false false false false false false true [] [] None WPlain)
        (TCons (TTable (tref_plain (L "t")) NoT NoT) TNil) WNil (TCons (TField (L "a") None None) TNil) TNil TNil TNil RNil NoT NoT NoT GNil ONil JNil NoT NoT UNil NoT NoT TNil CUNil NoT NoT TNil TNil)) TNil WNil)
     (TCons (TStar None None) TNil) TNil TNil TNil RNil NoT NoT NoT GNil ONil JNil NoT NoT UNil NoT NoT TNil CUNil NoT NoT TNil TNil).
Example C07_cte_bare_refuted :
  match render default_ctx None cte_witness with
  | Ok (s, _) => s = L "WITH my cte AS (SELECT ""a"" FROM ""t"") SELECT * FROM my cte" /\
                 twin_ok SQLITE [(L "zqn1", MName (L "my cte"))] (L "WITH zqn1 AS (SELECT ""a"" FROM ""t"") SELECT * FROM zqn1") s = Some false
  | Exn _ => False
  end.
Proof. vm_compute. split; reflexivity. Qed.

Example C07_twin_nonvacuous :
  twin_ok POSTGRESQL [(L "zqn1", MName (L "we""ird")); (L "zqn2", MName (L "select"))]
     (L "SELECT ""zqn2"" ""zqn1"" FROM ""zqn1""") (L "SELECT ""select"" ""we""""ird"" FROM ""we""""ird""") = Some true.
Proof. vm_compute. reflexivity. Qed.

(* DDL: every table, column, period and constraint-column name of a CREATE TABLE statement is written through the one quoting function
   (fquote with the class's quote character) - for ALL names, all six classes; by C07_ident each of them reads back as one identifier *)
Definition qd (b : bcls) (n : str) : str := fquote (quote_char (ctx_of b)) n.
Theorem C07_create_table_shape : forall b tn c1 c2 pf t0 ty,
  render (ctx_of b) None
    (TCreate (SomeT (TTable (tref_plain tn) NoT NoT)) false false true false
       (KCons c1 (Some (t0 :: ty)) (Some false) NoT (KCons c2 None None NoT KNil)) [(pf, c1, c2)] [[c1; c2]] [c1] NoT)
  = Ok (L "CREATE TABLE IF NOT EXISTS " ++ qd b tn ++ L " (" ++ qd b c1 ++ [32] ++ (t0 :: ty) ++ L " NOT NULL," ++ qd b c2 ++
        L ",PERIOD FOR " ++ qd b pf ++ L " (" ++ qd b c1 ++ [44] ++ qd b c2 ++ L "),UNIQUE (" ++ qd b c1 ++ [44] ++ qd b c2 ++
        L "),PRIMARY KEY (" ++ qd b c1 ++ L "))", None).
Proof.
  intros b tn c1 c2 pf t0 ty.
  destruct b; lazy -[fquote app]; cbn [app]; text_eq.
Qed.
Print Assumptions C07_create_table_shape.

Theorem C07_drop_table_shape : forall b tn sch,
  render (ctx_of b) None (TDrop (SomeT (TTable (MkTRef true tn [sch] None 0) NoT NoT)) true)
  = Ok (L "DROP TABLE IF EXISTS " ++ qd b sch ++ [46] ++ qd b tn, None).
Proof.
  intros b tn sch.
  destruct b; lazy -[fquote app]; text_eq.
Qed.
