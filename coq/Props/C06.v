(* Props/C06.v — C06: operator grouping of the expression tree survives rendering.

   Statement (executable, judged on every implementation output by ./check C06):
     Ref.TreeOf.grouping_ok d t sql  :=  parse (lex d sql) = tree_of t   modulo nf
   with Ref/Lexer.v, Ref/Parser.v (standard SQL precedence, stratified recursive descent) and
   Ref/TreeOf.v (which abstract tree a built term is; the permitted re-associations are nf).

   Proved here: the decision tables of the code — regenerated from the source into Gen/Prec.v by
   tools/gen_prec.py — agree entry by entry with what the reference grammar requires, except for
   exactly the listed known class (division as right operand of a multiplication), and the
   connective-bracketing rule is the reference one.  The round trip parse (lex (render t)) = nf (tree_of t)
   for all trees is not proved (DESIGN.md section 8): grouping_ok is evaluated per generated case. *)
From PT Require Import Base.Str Model.Types Model.Value Model.Syntax Gen.Prec Gen.Enums Gen.Ctx Model.Render
     Ref.Lexer Ref.TreeOf.
Open Scope N_scope.

(* what the reference grammar requires of an arithmetic child (E_add / E_mul, left associative) *)
Definition req_left (op cop : arith) : bool :=
  match op, cop with (Mul | Div), (Add | Sub) => true | _, _ => false end.
Definition req_right (op cop : arith) : bool :=
  match op, cop with
  | Add, _ => false                          (* x+(y+z), x+(y-z): permitted re-association; tighter children need none *)
  | Sub, (Add | Sub) => true
  | Sub, _ => false
  | Mul, (Add | Sub) => true
  | Mul, Mul => false                        (* pure multiplication chain *)
  | Mul, Div => true                         (* x*(y/z) is not (x*y)/z in integer arithmetic *)
  | Div, _ => true
  end.

Theorem C06_left_table : forall op cop, left_needs_parens op (OArith cop) = req_left op cop.
Proof. destruct op, cop; reflexivity. Qed.
Print Assumptions C06_left_table.

(* the one lax entry is the known finding C06-mul-div-right (pinned by tests/test_functions.py) *)
Theorem C06_right_table : forall op cop,
  right_needs_parens op (OArith cop) = (if arith_eqb op Mul && arith_eqb cop Div then false else req_right op cop).
Proof. destruct op, cop; reflexivity. Qed.
Print Assumptions C06_right_table.

Theorem C06_leaf_never_bracketed : forall op, left_needs_parens op ONone = false /\ right_needs_parens op ONone = false.
Proof. destruct op; split; reflexivity. Qed.

(* connectives: a nested group is bracketed exactly when its connective differs *)
Theorem C06_connective_table : forall c c', needs_brackets c (Some c') = negb (conn_eqb c' c) /\ needs_brackets c None = false.
Proof. destruct c, c'; split; reflexivity. Qed.
Print Assumptions C06_connective_table.

(* the operator spellings of the code lex to the operator tokens the reference parser knows *)
Theorem C06_spellings : forall d,
  (forall a, lex d (arith_sql a) = Some [TOp (arith_std a)]) /\
  (forall e, lex d (equality_sql e) = Some [TOp (equality_std e)]) /\
  (forall c, lex d (conn_sql c) = Some [TWord (conn_std c)]).
Proof. intro d. repeat split; intro x; destruct d, x; reflexivity. Qed.
Print Assumptions C06_spellings.

(* the known finding, as a refutation of the unguarded statement on the faithful model *)
Definition witness_mul_div : term :=
  TArith Mul (TField (L "a") None None) (TArith Div (TField (L "b") None None) (TField (L "c") None None) None) None.
Theorem C06_mul_div_refuted :
  kf_c06 witness_mul_div = true /\
  match render default_ctx None witness_mul_div with
  | Ok (s, _) => grouping_ok SQLITE witness_mul_div s = Some false
  | Exn _ => False
  end.
Proof. vm_compute. split; reflexivity. Qed.

(* non-vacuity: a nested expression outside the known classes passes the statement on the model *)
Definition sample_expr : term :=
  TComplex Or (TBasic (CEq Eq) (TArith Sub (TField (L "a") None None) (TArith Add (TField (L "b") None None) (TVal WPlain (VInt (-1)) [] None true) None) None)
                               (TNeg (TArith Mul (TField (L "c") None None) (TVal WPlain (VInt 2) [] None true) None) None) None)
              (TNot (TComplex And (TIsNull (TField (L "d") None None) None) (TBasic (CEq Lt) (TField (L "e") None None) (TVal WPlain (VInt 0) [] None true) None) None) None) None.
Example C06_nonvacuous :
  kf_c06 sample_expr = false /\
  match render default_ctx None sample_expr with
  | Ok (s, _) => s = L """a""-(""b""+-1)=-(""c""*2) OR NOT (""d"" IS NULL AND ""e""<0)" /\ grouping_ok SQLITE sample_expr s = Some true
  | Exn _ => False
  end.
Proof. vm_compute. repeat split. Qed.
