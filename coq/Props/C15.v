(* Props/C15.v — C15: copy, deepcopy and pickle round-trips preserve and decouple objects.
   PARTIAL.  Proved: (i) decoupling — a duplicate is a pre-existing object for every later builder
   call, so C01's frame theorem applies to it (shallow copies share containers: exactly the case the
   copy rule must protect); (ii) every class with dynamic attribute lookup wraps it in ignore_copy
   and ignore_copy refuses every special name that copy/pickle look up on instances.
   Not expressible in the model: that copy.deepcopy / pickle rebuild an isomorphic graph is CPython
   machinery; ./check C15 exercises the three mechanisms on generated object graphs. *)
From PT Require Import Base.Str Model.Effects Gen.Effects Proofs.Frame.
From PT Require Props.C01.
Open Scope N_scope.

Theorem C15_dynamic_lookup_guarded : dyn_lookup_guarded classes ignore_copy_names = true.
Proof. vm_compute. reflexivity. Qed.
Print Assumptions C15_dynamic_lookup_guarded.

(* decoupling: whichever way the duplicate was made, later accepted builder calls write only fresh
   cells, hence never a cell of the original or of the duplicate *)
Theorem C15_decoupled :
  forall (mn : list str) (c : classrec) (old : loc -> bool) (self' : loc) (argloc : str -> list str -> loc)
         (alias_is_none : loc -> bool) (original duplicate : loc),
  old original = true -> old duplicate = true ->
  old self' = false ->
  forall (fresh_loc : loc), old fresh_loc = false ->
  forall effs e,
  builder_ok_from classes mn c [] effs = true -> env_ok c old [] e ->
  Forall (fun x => (cell_loc x = original \/ cell_loc x = duplicate) ->
                   exists l, x = Cell l (L "alias") /\ alias_is_none l = true)
         (all_cells classes c self' argloc alias_is_none fresh_loc e effs).
Proof.
  intros mn c old self' argloc an original duplicate Ho Hd Hs fl Hfl effs e Hok Henv.
  pose proof (builder_frame classes mn c old self' argloc an Hs fl Hfl effs [] e Hok Henv) as H.
  eapply Forall_impl; [|exact H]. intros x [Hx|Hx] Hloc; [|exact Hx].
  destruct Hloc as [E|E]; rewrite E in Hx; congruence.
Qed.
Print Assumptions C15_decoupled.

Example C15_nonvacuous : n_dyn_classes classes = 4%nat /\ all_builders_ok classes = true.
Proof. split; [vm_compute; reflexivity | exact Props.C01.C01_summary_safe]. Qed.
