(* Props/C14.v — C14: invalid constructions are rejected with library exceptions; valid ones never are.

   Judged on the implementation by ./check C14: for every generated program the exception class raised (or its absence) must equal the
   rule of Ref/Reject.v evaluated in Coq on the program's description.

   Proved here: the join rule is exactly "some referenced table is missing" (an iff, for all source lists), the set-based validation
   the code performs (hash lookup then ==) decides the same as the rule, and the small decision tables of the other guards say what the
   property says. *)
From PT Require Import Base.Str Model.EqHash Ref.Reject Proofs.EqHashFacts.
Open Scope N_scope.

Definition avail from joined item update ctes : list src := from ++ joined ++ [item] ++ update ++ ctes.

Theorem C14_join_reject_iff : forall from joined item update ctes refs,
  join_expected from joined item update ctes refs = Some XJoin <->
  exists r, In r refs /\ forall a, In a (avail from joined item update ctes) -> src_eq r a = false.
Proof.
  intros. unfold join_expected, join_ok. fold (avail from joined item update ctes).
  destruct (forallb _ refs) eqn:E; split; intro H; try discriminate; try reflexivity.
  - destruct H as (r & Hr & Hm). rewrite forallb_forall in E. specialize (E r Hr). apply existsb_exists in E as (a & Ha & Hq).
    rewrite (Hm a Ha) in Hq. discriminate.
  - clear H. induction refs as [|r refs IH]; [discriminate|]. cbn [forallb] in E. apply andb_false_iff in E as [E|E].
    + exists r. split; [left; reflexivity|]. intros a Ha. destruct (src_eq r a) eqn:Q; [|reflexivity].
      assert (existsb (src_eq r) (avail from joined item update ctes) = true) by (apply existsb_exists; eauto). congruence.
    + destruct (IH E) as (x & Hx & Hm). exists x. split; [right; assumption|assumption].
Qed.
Print Assumptions C14_join_reject_iff.

(* a condition that refers only to available sources is never rejected *)
Corollary C14_valid_never_rejected : forall from joined item update ctes refs,
  (forall r, In r refs -> In r (avail from joined item update ctes)) -> (forall r, src_eq r r = true) ->
  join_expected from joined item update ctes refs = None.
Proof.
  intros * Hin Hrefl. unfold join_expected, join_ok. fold (avail from joined item update ctes).
  replace (forallb _ refs) with true; [reflexivity|]. symmetry. apply forallb_forall. intros r Hr. apply existsb_exists. exists r. split; [apply Hin, Hr|apply Hrefl].
Qed.

(* the validation as the code performs it: a set of the referenced tables minus a set of the available ones (hash lookup, then ==) *)
Definition src_key (s : src) : N * (str * option schema * option str) :=
  match s with
  | STable t => (0, tbl_key t) | SQuery a => (1, ([], None, a)) | SCte n => (2, (n, None, None)) | SNone => (3, ([], None, None))
  end.
Definition skey_eqb (x y : N * (str * option schema * option str)) : bool := (fst x =? fst y) && tkey_eqb (snd x) (snd y).
Definition validate_by_sets (availl refs : list src) : bool :=
  forallb (fun r => set_mem src_eq src_key skey_eqb r availl) refs.

(* == on row sources is exactly equality of the hashed key, as for tables *)
Lemma src_eq_spec a b : src_eq a b = true <-> src_key a = src_key b.
Proof.
  destruct a as [x|x|x|], b as [y|y|y|]; cbn [src_eq src_key]; try (split; discriminate).
  - rewrite tbl_eq_spec. split; congruence.
  - unfold qb_eq. rewrite ostr_eqb_eq. split; congruence.
  - unfold aq_eq. rewrite seqb_eq. split; congruence.
  - split; reflexivity.
Qed.
Lemma src_eq_refl r : src_eq r r = true.
Proof. apply src_eq_spec. reflexivity. Qed.
Lemma src_eq_sym a b : src_eq a b = src_eq b a.
Proof. apply (eqb_sym src_eq_spec). Qed.
Lemma src_eq_key a b : src_eq a b = skey_eqb (src_key a) (src_key b).
Proof. destruct a, b; cbn; rewrite ?andb_true_r; reflexivity. Qed.

Theorem C14_set_validation_is_the_rule : forall from joined item update ctes refs,
  validate_by_sets (avail from joined item update ctes) refs = join_ok from joined item update ctes refs.
Proof.
  intros. apply forallb_ext. intro r. rewrite set_mem_linear by (intros a b H; rewrite <- src_eq_key; exact H).
  apply existsb_ext. intro a. apply src_eq_sym.
Qed.
Print Assumptions C14_set_validation_is_the_rule.

(* the other guards, as the property words them *)
Theorem C14_guard_tables :
  (forall b ops, setop_expected b ops = None <-> forall n, In n ops -> n = b) /\
  (case_expected 0 = Some XCase /\ forall n, case_expected (S n) = None) /\
  conflict_expected true [CCOnConflict 1; CCDoNothing; CCDoUpdate] = Some XQuery /\
  conflict_expected true [CCOnConflict 1; CCDoUpdate; CCDoNothing] = Some XQuery /\
  conflict_expected true [CCOnConflict 1; CCDoNothing; CCWhere] = Some XQuery /\
  conflict_expected true [CCOnConflict 0; CCDoNothing; CCWhere] = Some XQuery /\
  conflict_expected true [CCOnConflict 0; CCWhere] = Some XQuery /\
  conflict_expected true [CCOnConflict 0; CCDoUpdate] = Some XQuery /\
  conflict_expected false [CCOnConflict 1] = Some XQuery /\
  conflict_expected true [CCOnConflict 1; CCDoUpdate; CCWhere] = None /\
  conflict_expected true [CCOnConflict 1; CCWhere; CCDoUpdate; CCDoUpdate] = None /\
  conflict_expected true [CCOnConflict 2; CCDoNothing] = None /\
  (forall dml foreign, returning_expected dml foreign true = Some XQuery) /\
  returning_expected false false false = Some XQuery /\ returning_expected true true false = Some XQuery /\ returning_expected true false false = None /\
  (forall r, oneshot_expected r 1 = None) /\ oneshot_expected false 2 = Some XAttr /\ oneshot_expected true 2 = Some XRollup.
Proof.
  repeat split.
  - unfold setop_expected. intros H n Hn. destruct (forallb _ ops) eqn:E; [|discriminate]. rewrite forallb_forall in E. specialize (E n Hn).
    apply Nat.eqb_eq in E. congruence.
  - intro H. unfold setop_expected. replace (forallb (Nat.eqb b) ops) with true; [reflexivity|]. symmetry. apply forallb_forall. intros n Hn.
    apply Nat.eqb_eq. symmetry. apply H, Hn.
Qed.
Print Assumptions C14_guard_tables.

Example C14_nonvacuous :
  let t := STable (MkTbl (L "t") None None None) in let u := STable (MkTbl (L "u") None None None) in let v := STable (MkTbl (L "v") None None None) in
  join_expected [t] [] u [] [] [t; u] = None /\ join_expected [t] [] u [] [] [v; t] = Some XJoin /\ join_expected [t] [] u [] [] [t; v] = Some XJoin /\
  join_expected [STable (MkTbl (L "t") None None (Some (L "temporal")))] [] u [] [] [t; u] = None /\
  join_expected [t] [] u [] [SCte (L "c")] [SCte (L "c"); u] = None.
Proof. vm_compute. repeat split. Qed.
