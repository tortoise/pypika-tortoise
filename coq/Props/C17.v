(* Props/C17.v — C17: equality and hashing of tables, schemas, aliased queries and query builders are coherent.

   Judged on the implementation by ./check C17: ==, hash equality, set / dict / list membership on the cross product of table variants
   (relational, and against Model.EqHash evaluated in Coq); fields_() / tables_ against an independent walk of the object graph.

   Proved here, for ALL names, schema chains and aliases: == is an equivalence; equal objects have equal hash keys (and conversely);
   membership in a set or dict is a linear search with ==; and - on the tables regenerated from the source on every run - __hash__ reads
   only attributes that __eq__ compares, and nodes_() visits every attribute that can hold a column or table reference. *)
From PT Require Import Base.Str Model.EqHash Gen.EqHash Gen.Children Proofs.EqHashFacts.
Open Scope N_scope.

Theorem C17_table_eq_equivalence :
  (forall a, tbl_eq a a = true) /\ (forall a b, tbl_eq a b = tbl_eq b a) /\ (forall a b c, tbl_eq a b = true -> tbl_eq b c = true -> tbl_eq a c = true).
Proof.
  repeat split.
  - intro a. apply tbl_eq_spec. reflexivity.
  - apply (eqb_sym tbl_eq_spec).
  - intros a b c H1 H2. apply tbl_eq_spec in H1, H2. apply tbl_eq_spec. congruence.
Qed.
Print Assumptions C17_table_eq_equivalence.

(* equal tables have equal hashes (keys), whatever their temporal clause; unequal tables have different keys *)
Theorem C17_table_eq_hash : forall a b, tbl_eq a b = tkey_eqb (tbl_key a) (tbl_key b).
Proof. reflexivity. Qed.

(* membership in a set / dict (hash lookup, then ==) is a linear search with == *)
Theorem C17_set_mem_is_linear : forall x s, set_mem tbl_eq tbl_key tkey_eqb x s = list_mem tbl_eq x s.
Proof. apply set_mem_linear. intros a b H. rewrite <- C17_table_eq_hash. exact H. Qed.
Print Assumptions C17_set_mem_is_linear.

Theorem C17_schema_aliased_builder :
  (forall a b : schema, schema_eq a b = true <-> schema_key a = schema_key b) /\
  (forall a b : str, aq_eq a b = true <-> a = b) /\ (forall a b : option str, qb_eq a b = true <-> a = b).
Proof. exact (conj strs_eqb_eq (conj seqb_eq ostr_eqb_eq)). Qed.

Definition subset (a b : list str) : bool := forallb (fun x => existsb (seqb x) b) a.
Definition hash_reads_only_eq_fields (r : str * option (list str) * option (list str)) : bool :=
  let '(n, e, h) := r in
  if seqb n (L "Field") then true            (* Term.__eq__ builds a criterion; Field is not among the classes of this property *)
  else match e, h with
       | Some ef, Some hf => subset hf ef && subset ef hf
       | None, None => true
       | _, _ => false                       (* __eq__ without __hash__ (unhashable) or the reverse *)
       end.
Theorem C17_hash_over_eq_fields : forallb hash_reads_only_eq_fields eqhash = true.
Proof. vm_compute. reflexivity. Qed.
Print Assumptions C17_hash_over_eq_fields.

(* fields_() / tables_ walk nodes_(): every attribute that can hold a reference is visited (statements deliberately stop: a sub-query keeps its own fields) *)
Definition visit_complete_row (r : str * list str * option (list str) * option (list str) * bool) : bool :=
  let '(_, kids, _, vis, stmt) := r in stmt || match vis with Some l => subset kids l | None => false end.
Theorem C17_visit_complete : forallb visit_complete_row children = true.
Proof. vm_compute. reflexivity. Qed.
Print Assumptions C17_visit_complete.

Example C17_nonvacuous :
  let t := MkTbl (L "t") (Some [L "s"]) None None in
  let tf := MkTbl (L "t") (Some [L "s"]) None (Some (L """x""=1")) in
  let ta := MkTbl (L "t") (Some [L "s"]) (Some (L "al")) None in
  tbl_eq t tf = true /\ tbl_key t = tbl_key tf /\ tbl_eq t ta = false /\ set_mem tbl_eq tbl_key tkey_eqb tf [ta; t] = true.
Proof. vm_compute. repeat split. Qed.
