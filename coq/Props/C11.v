(* Props/C11.v — C11: column references are qualified exactly when needed and always by the right name.

   Judged on every implementation output by ./check C11: Ref.Qualify.c11_ok (every marked column of the lexed statement carries exactly
   the qualifier the rule demands: the alias of an aliased source always, the table name iff more than one row source is in scope, nothing
   in the exempt positions).

   Proved here on the model of the renderers, for ALL names: the qualifier rule of a column reference and of table.*; and for SELECT
   statements of all six classes with columns in the select list, WHERE, GROUP BY, HAVING, ORDER BY and JOIN..ON: with one source every
   reference is bare, with a join every reference is qualified by its table's name, with an aliased source by the alias. *)
From PT Require Import Base.Str Model.Types Model.Value Model.Syntax Gen.Ctx Gen.Enums Model.Render Ref.Qualify Proofs.TextEq.
Open Scope N_scope.

Definition qn (c : ctx) (s : str) : str := fquote (quote_char c) s.

(* the rule for one column reference, in every context *)
Theorem C11_field_rule : forall c p name r,
  render c p (TField name (Some r) None) =
  Ok (if with_namespace c || str_truthy (tr_alias r) then qn c (qualifier r) ++ [46] ++ qn c name else qn c name, p) /\
  (tr_istable r = true -> qualifier r = if str_truthy (tr_alias r) then ostr (tr_alias r) else tr_name r).
Proof. intros. split; [|intro H; unfold qualifier; rewrite H; reflexivity]. cbn [render alias_if]. destruct (with_namespace c || str_truthy (tr_alias r)), (with_alias c); reflexivity. Qed.

Theorem C11_field_without_table : forall c p name, render c p (TField name None None) = Ok (qn c name, p).
Proof. intros. cbn [render]. destruct (with_alias c); reflexivity. Qed.

Definition tb (n : str) (a : option str) : tref := MkTRef true n [] a 0.
Definition col (n : str) (r : tref) : term := TField n (Some r) None.
Definition fl0 (cls : bcls) : qflags :=
  MkFl None false false false false false false false false false false false false (wrap_set_ops_of cls) [] [] None (wrapper_of cls).
Definition eq_ (a b : term) : term := TBasic (CEq Eq) a b None.

(* SELECT c1 FROM t WHERE c2=c3 GROUP BY c4 HAVING c5=c6 ORDER BY c7   [JOIN u ON c8=c9] *)
Definition stmt (cls : bcls) (t u : tref) (join : bool) (c1 c2 c3 c4 c5 c6 c7 c8 c9 : str) : query :=
  MkQ cls (fl0 cls) (TCons (TTable t NoT NoT) TNil) WNil (TCons (col c1 t) TNil) TNil TNil TNil RNil
      (SomeT (eq_ (col c2 t) (col c3 t))) NoT (SomeT (eq_ (col c5 t) (col c6 t))) (GCons (col c4 t) NoT GNil) (OCons (col c7 t) None ONil)
      (if join then JCons (JOn (TTable u NoT NoT) JInner (eq_ (col c8 t) (col c9 u)) None) JNil else JNil)
      NoT NoT UNil NoT NoT TNil CUNil NoT NoT TNil TNil.

(* the reference text: every column as r1 .. r9 give it, bare or qualified *)
Definition text (cls : bcls) (tdef udef : str) (join : bool) (r1 r2 r3 r4 r5 r6 r7 r8 r9 : str) : str :=
  L "SELECT " ++ r1 ++ L " FROM " ++ tdef ++ (if join then L " JOIN " ++ udef ++ L " ON " ++ r8 ++ L "=" ++ r9 else []) ++
  L " WHERE " ++ r2 ++ L "=" ++ r3 ++ L " GROUP BY " ++ r4 ++ L " HAVING " ++ r5 ++ L "=" ++ r6 ++ L " ORDER BY " ++ r7.

Definition bare (cls : bcls) (n : str) : str := qn (ctx_of cls) n.
Definition qual (cls : bcls) (q n : str) : str := qn (ctx_of cls) q ++ [46] ++ qn (ctx_of cls) n.
Definition adef (cls : bcls) (n a : str) : str := qn (ctx_of cls) n ++ [32] ++ fquote (alias_q (ctx_of cls)) a.

(* one un-aliased source: every reference is bare *)
Theorem C11_single_source_bare : forall cls tn c1 c2 c3 c4 c5 c6 c7,
  render (ctx_of cls) None (TQuery (stmt cls (tb tn None) (tb tn None) false c1 c2 c3 c4 c5 c6 c7 [] [])) =
  Ok (text cls (bare cls tn) [] false (bare cls c1) (bare cls c2) (bare cls c3) (bare cls c4) (bare cls c5) (bare cls c6) (bare cls c7) [] [], None).
Proof. intros. destruct cls; lazy -[dbl app]; text_eq. Qed.
Print Assumptions C11_single_source_bare.

(* a join: every reference, in every clause, is qualified by its own table's name *)
Theorem C11_join_qualified : forall cls tn un c1 c2 c3 c4 c5 c6 c7 c8 c9,
  render (ctx_of cls) None (TQuery (stmt cls (tb tn None) (tb un None) true c1 c2 c3 c4 c5 c6 c7 c8 c9)) =
  Ok (text cls (bare cls tn) (bare cls un) true (qual cls tn c1) (qual cls tn c2) (qual cls tn c3) (qual cls tn c4) (qual cls tn c5) (qual cls tn c6)
           (qual cls tn c7) (qual cls tn c8) (qual cls un c9), None).
Proof. intros. destruct cls; lazy -[dbl app]; text_eq. Qed.
Print Assumptions C11_join_qualified.

(* an aliased single source: qualified by the alias, never by the table name (a : a non-empty alias x :: xs) *)
Theorem C11_aliased_source : forall cls tn x xs c1 c2 c3 c4 c5 c6 c7,
  let a := x :: xs in
  render (ctx_of cls) None (TQuery (stmt cls (tb tn (Some a)) (tb tn None) false c1 c2 c3 c4 c5 c6 c7 [] [])) =
  Ok (text cls (adef cls tn a) [] false (qual cls a c1) (qual cls a c2) (qual cls a c3) (qual cls a c4) (qual cls a c5) (qual cls a c6) (qual cls a c7) [] [], None).
Proof. intros. subst a. destruct cls; lazy -[dbl app]; text_eq. Qed.

Example C11_rule_examples :
  expected false (MkCol (L "c") (Some (L "t")) None false) = None /\ expected true (MkCol (L "c") (Some (L "t")) None false) = Some (L "t") /\
  expected false (MkCol (L "c") (Some (L "t")) (Some (L "a")) false) = Some (L "a") /\ expected true (MkCol (L "c") (Some (L "t")) (Some (L "a")) true) = None /\
  c11_ok SQLITE true [MkCol (L "c") (Some (L "t")) None false; MkCol (L "d") (Some (L "u")) (Some (L "ua")) false] []
         (L "SELECT ""t"".""c"" FROM ""t"" JOIN ""u"" ""ua"" ON ""t"".""c""=""ua"".""d""") = Some true /\
  c11_ok SQLITE true [MkCol (L "c") (Some (L "t")) None false; MkCol (L "d") (Some (L "u")) (Some (L "ua")) false] []
         (L "SELECT ""c"" FROM ""t"" JOIN ""u"" ""ua"" ON ""t"".""c""=""u"".""d""") = Some false.
Proof. vm_compute. repeat split. Qed.

(* EVERY statement of the model (any class, sources, joins, clauses; any context handed down): the qualification decision of the whole
   statement is ns q, and the select list, FROM list, the filter clauses, GROUP BY and ORDER BY write every column reference - any number of
   them - qualified exactly when ns q holds or the column's row source carries an alias, by the name the source is referred by *)
From PT Require Import Proofs.QueryEq.

(* how a column `name` of row source r is written when the statement's qualification decision is b *)
Definition ref (qc : str) (b : bool) (r : tref) (name : str) : str :=
  if b || str_truthy (tr_alias r) then fquote qc (qualifier r) ++ [46] ++ fquote qc name else fquote qc name.
Definition colref (n : str) (r : tref) : term := TField n (Some r) None.

Lemma render_col : forall c p n r, render c p (colref n r) = Ok (ref (quote_char c) (with_namespace c) r n, p).
Proof. intros c p n r. exact (proj1 (C11_field_rule c p n r)). Qed.

(* the context of the clauses of statement q when the caller hands down c0 *)
Definition cc (q : query) (c0 : ctx) : ctx := clause_ctx q (adjust_ctx q c0).

(* the setters of Model/Types.v are written with projections: a flag set on top does not hide these two *)
Lemma cc_flags q c0 : with_namespace (cc q c0) = ns q /\ quote_char (cc q c0) = quote_char c0.
Proof. unfold cc, clause_ctx, adjust_ctx. destruct (q_cls q); split; reflexivity. Qed.

Fixpoint cols_ts (l : list (str * tref)) : terms := match l with [] => TNil | (n, r) :: l' => TCons (colref n r) (cols_ts l') end.
Fixpoint cols_gb (l : list (str * tref)) : gbys := match l with [] => GNil | (n, r) :: l' => GCons (colref n r) NoT (cols_gb l') end.
Fixpoint cols_ob (l : list (str * tref * option order)) : obys :=
  match l with [] => ONil | (n, r, o) :: l' => OCons (colref n r) o (cols_ob l') end.

Lemma render_ts_cols : forall l c p,
  render_ts c p (cols_ts l) = Ok (map (fun x => ref (quote_char c) (with_namespace c) (snd x) (fst x)) l, p).
Proof.
  induction l as [|[n r] l IH]; intros c p; [reflexivity|].
  cbn [cols_ts render_ts]. rewrite render_col, IH. reflexivity.
Qed.
Lemma render_gbys_cols : forall l c p,
  render_gbys c p (cols_gb l) = Ok (map (fun x => ref (quote_char c) (with_namespace c) (snd x) (fst x)) l, p).
Proof.
  induction l as [|[n r] l IH]; intros c p; [reflexivity|].
  cbn [cols_gb render_gbys]. rewrite render_col, IH. reflexivity.
Qed.
Lemma render_obys_cols : forall l c sel p,
  render_obys c sel true p (cols_ob l) =
  Ok (map (fun x => let s := ref (quote_char c) (with_namespace c) (snd (fst x)) (fst (fst x)) in
                    match snd x with Some d => s ++ [32] ++ order_sql d | None => s end) l, p).
Proof.
  induction l as [|[[n r] o] l IH]; intros c sel p; [reflexivity|].
  cbn [cols_ob render_obys term_alias colref alias_selected]. rewrite andb_false_r.
  rewrite render_col, IH. reflexivity.
Qed.

Theorem C11_statement_namespace : forall (q : query) (c0 : ctx),
  with_namespace (cc q c0) = ns q /\
  ns q = has_joins q || from_len_gt1 (q_from q) || from0_is_query (q_from q) || q_foreign_table q || (has_upd q && is_nonempty_terms (q_from q)).
Proof. intros q c0. split; [apply cc_flags | reflexivity]. Qed.

(* the select list and the FROM list of EVERY statement *)
Theorem C11_select_list_columns : forall (q : query) (c0 : ctx) (p : pz) l,
  r_ts the_rens (set_with_alias true (set_subquery true (cc q c0))) p (cols_ts l) =
  Ok (map (fun x => ref (quote_char c0) (ns q) (snd x) (fst x)) l, p).
Proof. intros. cbn [r_ts the_rens]. rewrite render_ts_cols. cbn [with_namespace quote_char set_with_alias set_subquery]. destruct (cc_flags q c0) as [-> ->]. reflexivity. Qed.

(* a comparison of two columns under the context of the filter clauses *)
Lemma render_cmp_cols : forall (q : query) (c0 : ctx) (p : pz) e n1 r1 n2 r2,
  render (set_subquery true (cc q c0)) p (TBasic (CEq e) (colref n1 r1) (colref n2 r2) None) =
  Ok (ref (quote_char c0) (ns q) r1 n1 ++ equality_sql e ++ ref (quote_char c0) (ns q) r2 n2, p).
Proof.
  intros. cbn [render]. rewrite !render_col. cbn [with_namespace quote_char set_with_alias set_subquery]. destruct (cc_flags q c0) as [-> ->]. reflexivity.
Qed.

(* the filter clauses (WHERE, PREWHERE, HAVING, ON CONFLICT .. WHERE) of EVERY statement: a comparison of two columns *)
Theorem C11_filter_clause_columns : forall (q : query) (c0 : ctx) (p : pz) e n1 r1 n2 r2,
  r_o the_rens (set_subquery true (cc q c0)) p (SomeT (TBasic (CEq e) (colref n1 r1) (colref n2 r2) None)) =
  Ok (Some (ref (quote_char c0) (ns q) r1 n1 ++ equality_sql e ++ ref (quote_char c0) (ns q) r2 n2), p).
Proof. intros. cbn [r_o the_rens render_o]. rewrite render_cmp_cols. reflexivity. Qed.

Theorem C11_where_columns : forall (q : query) (c0 : ctx) (p : pz) e n1 r1 n2 r2,
  q_wheres q = SomeT (TBasic (CEq e) (colref n1 r1) (colref n2 r2) None) ->
  where_sql the_rens q (cc q c0) p =
    Ok (L " WHERE " ++ ref (quote_char c0) (ns q) r1 n1 ++ equality_sql e ++ ref (quote_char c0) (ns q) r2 n2, p).
Proof. intros q c0 p e n1 r1 n2 r2 H. unfold where_sql. rewrite H, C11_filter_clause_columns. reflexivity. Qed.

(* GROUP BY and ORDER BY of EVERY statement, any number of columns *)
Theorem C11_groupby_columns : forall (q : query) (c0 : ctx) (p : pz) l,
  r_gbys the_rens (set_subquery true (cc q c0)) p (cols_gb l) = Ok (map (fun x => ref (quote_char c0) (ns q) (snd x) (fst x)) l, p).
Proof. intros. cbn [r_gbys the_rens]. rewrite render_gbys_cols. cbn [with_namespace quote_char set_subquery]. destruct (cc_flags q c0) as [-> ->]. reflexivity. Qed.

Theorem C11_orderby_columns : forall (q : query) (c0 : ctx) (p : pz) l,
  q_orderbys q = cols_ob l -> l <> [] ->
  orderby_sql the_rens q (cc q c0) p =
  Ok (L " ORDER BY " ++ join [44] (map (fun x => let s := ref (quote_char c0) (ns q) (snd (fst x)) (fst (fst x)) in
                                                 match snd x with Some d => s ++ [32] ++ order_sql d | None => s end) l), p).
Proof.
  intros q c0 p l H Hl. unfold orderby_sql, orderby_sql_c. rewrite H. destruct l as [|[[n r] o] l]; [congruence|].
  rewrite render_obys_cols. cbn [with_namespace quote_char set_subquery]. destruct (cc_flags q c0) as [-> ->]. reflexivity.
Qed.
(* JOIN .. ON of EVERY statement: the condition's column references follow the same rule (the joined item is rendered in the FROM-list context) *)
Theorem C11_join_on_columns : forall (q : query) (c0 : ctx) (p : pz) item how e n1 r1 n2 r2 s p1,
  render (set_with_alias true (set_subquery true (cc q c0))) p item = Ok (s, p1) ->
  exists head, render_join (cc q c0) p (JOn item how (TBasic (CEq e) (colref n1 r1) (colref n2 r2) None) None) =
    Ok (head ++ L " ON " ++ ref (quote_char c0) (ns q) r1 n1 ++ equality_sql e ++ ref (quote_char c0) (ns q) r2 n2, p1).
Proof.
  intros q c0 p item how e n1 r1 n2 r2 s p1 H. cbn [render_join]. rewrite H. rewrite render_cmp_cols.
  exists (match jointype_sql how with [] => L "JOIN " ++ s | c1 :: l => (c1 :: l) ++ [32] ++ L "JOIN " ++ s end).
  rewrite app_nil_r. reflexivity.
Qed.
Print Assumptions C11_join_on_columns.
Print Assumptions C11_statement_namespace.
Print Assumptions C11_select_list_columns.
Print Assumptions C11_filter_clause_columns.
Print Assumptions C11_where_columns.
Print Assumptions C11_groupby_columns.
Print Assumptions C11_orderby_columns.
