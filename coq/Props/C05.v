(* Props/C05.v — C05: inlined values are single literal tokens that decode to the original value.

   Statement judged on every implementation output by ./check C05 (Ref/Align.v, twin_ok): the text rendered
   with the actual values reads, token for token, as the text rendered with harmless marker values in which
   every marker literal is replaced by ONE literal token decoding to the actual value.

   Proved here, for ALL strings / integers and every dialect, about the model of the value printers
   (Model/Value.v: get_formatted_value, the MySQL and SQLite wrappers, format_quotes, the JSON term): *)
From PT Require Import Base.Str Model.Types Model.Value Gen.Ctx Ref.Lexer Ref.Align Proofs.LexQuoted Proofs.LexLit.
Open Scope N_scope.

(* the MySQL wrapper class is only meaningful under the MySQL dialect (it is what MySQLQueryBuilder installs) *)
Definition wrapper_ok (w : wcls) (d : dial) : Prop := w = WMySQL -> d = MYSQL.

Lemma C05_secondary_quote : forall b, secondary_quote_char (ctx_of b) = [39].
Proof. destruct b; reflexivity. Qed.

(* the plain printer's string literal under the dialect's own lexer: backslashes are doubled exactly for MySQL *)
Lemma string_lit d s : lex d (fquote [39] (bsd (dial_eqb d MYSQL) s)) = Some [TStr s].
Proof. replace (dial_eqb d MYSQL) with (lc_bs (lexcfg_of d)) by (destruct d; reflexivity). apply string_roundtrip_bsd. Qed.

(* every string value, in every dialect, through every wrapper class: one string token decoding to s *)
Theorem C05_string : forall d w s, wrapper_ok w d ->
  lex d (value_sql w (dial_eqb d MYSQL) [39] (VStr s)) = Some [TStr s].
Proof.
  intros d w s Hw. destruct w; try apply string_lit.
  rewrite (Hw eq_refl). apply (string_lit MYSQL).
Qed.
Print Assumptions C05_string.

(* dates, datetimes, UUIDs and json.dumps texts take the same path *)
Theorem C05_text_kinds : forall d w s, wrapper_ok w d ->
  lex d (value_sql w (dial_eqb d MYSQL) [39] (VIso s)) = Some [TStr s] /\
  lex d (value_sql w (dial_eqb d MYSQL) [39] (VUuid s)) = Some [TStr s] /\
  (w <> WMySQL -> lex d (value_sql w (dial_eqb d MYSQL) [39] (VDumped s)) = Some [TStr s]).
Proof.
  intros d w s _. repeat split; [| |intro Hn]; destruct w; try apply string_lit.
  destruct (Hn eq_refl).
Qed.

(* integers: a non-negative one is one numeric token that reads back as the number; a negative one is a minus sign and
   the numeric token of its magnitude *)
Theorem C05_int : forall d w my q z,
  match z with
  | Zneg p => lex d (value_sql w my q (VInt z)) = Some [TOp [45]; TNum (N_to_str (Npos p))] /\ read_dec (N_to_str (Npos p)) = Some (Npos p)
  | _ => lex d (value_sql w my q (VInt z)) = Some [TNum (N_to_str (Z.to_N z))] /\ read_dec (N_to_str (Z.to_N z)) = Some (Z.to_N z)
  end.
Proof.
  intros d w my q z. unfold lex.
  replace (value_sql w my q (VInt z)) with (Z_to_str z) by (destruct w; reflexivity).
  destruct z as [|p|p].
  - exact (nat_roundtrip _ 0).
  - exact (nat_roundtrip _ (Npos p)).
  - split; [apply neg_roundtrip|apply read_dec_N_to_str].
Qed.
Print Assumptions C05_int.

Theorem C05_bool_none : forall d w my q b,
  lex d (value_sql w my q VNone) = Some [TWord (L "null")] /\
  lex d (value_sql w my q (VBool b)) = Some [match w with WSQLite => TNum (if b then L "1" else L "0") | _ => TWord (if b then L "true" else L "false") end].
Proof. intros d w my q b. split; destruct w, b; reflexivity. Qed.

(* a string literal is one token whatever surrounds it *)
Theorem C05_in_context : forall d st out' s c rest,
  lc_bs (lexcfg_of d) = false -> pending st = Some out' -> c <> 39 ->
  run (lexcfg_of d) st (fquote [39] s ++ c :: rest) = run (lexcfg_of d) (start (lexcfg_of d) (TStr s :: out') c) rest.
Proof.
  intros d st out' s c rest Hb Hp Hc.
  apply (quoted_in_context (lexcfg_of d) st out' 39 KStr s c rest Hp eq_refl); [left; exact Hb|exact Hc].
Qed.

(* the JSON term: every string inside it is written so that a JSON reader gets the string back *)
Theorem C05_json_string : forall s, exists body, json_sql (JStr s) = [34] ++ body ++ [34] /\ json_body_decode body = Some s.
Proof. intro s. apply json_string_roundtrip. Qed.
Print Assumptions C05_json_string.

(* the whole JSON term, quoted as a SQL literal, is one string token holding the JSON text *)
Theorem C05_json_literal : forall d j, lc_bs (lexcfg_of d) = false -> lex d (fquote [39] (json_sql j)) = Some [TStr (json_sql j)].
Proof. intros d j Hb. apply string_roundtrip. exact Hb. Qed.

(* regression witnesses: what the code printed before the repairs is NOT one token decoding to the value *)
Example C05_old_mysql_plain_refuted :
  lex MYSQL (39 :: dbl 39 (L "trail\") ++ [39]) <> Some [TStr (L "trail\")].
Proof. vm_compute. discriminate. Qed.
Example C05_old_dict_refuted :
  lex SQLITE (39 :: L "{""a"": ""b'c""}" ++ [39]) <> Some [TStr (L "{""a"": ""b'c""}")].
Proof. vm_compute. discriminate. Qed.

(* non-vacuity of the twin statement: a nasty value against its marker *)
Example C05_twin_nonvacuous :
  twin_ok MYSQL [(L "zqv1", MVal (VStr (L "a'b\c--/*")))]
     (L "SELECT `a` FROM `t` WHERE `a`='zqv1'") (L "SELECT `a` FROM `t` WHERE `a`='a''b\\c--/*'") = Some true /\
  twin_ok MYSQL [(L "zqv1", MVal (VStr (L "a'b\")))]
     (L "SELECT `a` FROM `t` WHERE `a`='zqv1' AND `b`=1") (L "SELECT `a` FROM `t` WHERE `a`='a''b\' AND `b`=1") = Some false.
Proof. vm_compute. split; reflexivity. Qed.

From PT Require Import Model.Syntax Model.Render Proofs.TextEq.

(* LOAD DATA: the file name is written by the same literal printer as every string value (MySQL rule: backslashes doubled) - for ALL
   file names; by C05_string the literal reads back as one string token holding the file name *)
Theorem C05_load_file_literal : forall tn f0 fs,
  render (ctx_of BMySQL) None (TLoad (Some (f0 :: fs)) (SomeT (TTable (MkTRef true tn [] None 0) NoT NoT))) =
  Ok (L "LOAD DATA LOCAL INFILE " ++ value_sql WPlain true [39] (VStr (f0 :: fs)) ++ L " INTO TABLE " ++ fquote (L "`") tn ++
      L " FIELDS TERMINATED BY ','", None).
Proof.
  intros tn f0 fs. lazy -[fquote app bsd dbl]. text_eq.
Qed.
Print Assumptions C05_load_file_literal.
