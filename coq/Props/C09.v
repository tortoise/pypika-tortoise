(* Props/C09.v — C09: LIMIT/OFFSET render as the dialect's row-limiting clause, values in the right slots.

   Statement judged on every implementation output by ./check C09: Ref.RowLimit.c09_ok (reference recogniser on the lexed tail
   of the targeted statement; slots compared with the limit/offset the object holds; placeholders checked against the value list).

   Proved here for ALL limit and offset values (any integers, absent or present), with and without ORDER BY, for all six query
   classes, inline and parameterised: the model of the renderers prints exactly the REFERENCE clause text (Ref.RowLimit.ref_pagination,
   written from the dialects' grammars) after the statement head; and in parameterised mode the values enter the parameter list in the
   order of their placeholders.  These are instances of the two theorems the file begins with: the clause of EVERY statement and of EVERY
   set operation of the model, whatever its limit and offset terms, is the reference clause. *)
From PT Require Import Base.Str Model.Types Model.Value Model.Syntax Gen.Ctx Gen.Placeholders Model.Render Ref.RowLimit Proofs.Post Proofs.QueryEq Proofs.ClauseOrder Proofs.PaginationAll Proofs.TextEq.
Open Scope N_scope.

Definition tbl : term := TTable (MkTRef true (L "t") [] None 0) NoT NoT.
Definition fld : term := TField (L "a") None None.
Definition vid_of (z : Z) : str := L "int:" ++ Z_to_str z.
Definition ival (z : Z) : term := TVal WPlain (VInt z) (vid_of z) None true.
Definition oint (o : option Z) : oterm := match o with Some z => SomeT (ival z) | None => NoT end.
Definition fl0 (cls : bcls) : qflags :=
  MkFl None false false false false false false false false false false false false (wrap_set_ops_of cls) [] [] None (wrapper_of cls).
Definition shape (cls : bcls) (lim off : option Z) (ob : bool) : query :=
  MkQ cls (fl0 cls) (TCons tbl TNil) WNil (TCons fld TNil) TNil TNil TNil RNil NoT NoT NoT GNil
      (if ob then OCons fld None ONil else ONil) JNil (oint lim) (oint off) UNil NoT NoT TNil CUNil NoT NoT TNil TNil.

Definition qc (cls : bcls) : str := quote_char (ctx_of cls).
Definition head (cls : bcls) (ob : bool) : str :=
  L "SELECT " ++ fquote (qc cls) (L "a") ++ L " FROM " ++ fquote (qc cls) (L "t") ++
  (if ob then L " ORDER BY " ++ fquote (qc cls) (L "a") else []).

(* EVERY statement of the model - any clauses, any limit / offset TERMS (constants, placeholders, expressions), any context and
   parameterizer state: its row-limiting clause is the reference clause applied to what the limit and offset terms render to, the two
   rendered in the order of their slots (so that, with a parameterizer, values enter the list in the order of their placeholders) *)
Theorem C09_every_statement : forall (q : query) (c : ctx) (p : pz),
  pagination the_rens q c p =
    if offset_slot_first (q_cls q) then
      do (oo, p1) <- render_o c p (q_off q); do (ol, p2) <- render_o c p1 (q_lim q);
      Ok (ref_pagination (q_cls q) ol oo (has_order q), p2)
    else
      do (ol, p1) <- render_o c p (q_lim q); do (oo, p2) <- render_o c p1 (q_off q);
      Ok (ref_pagination (q_cls q) ol oo (has_order q), p2).
Proof. exact pagination_is_reference. Qed.
Print Assumptions C09_every_statement.

(* EVERY set operation of the model - any operands, ORDER BY items, limit / offset terms, context and parameterizer state: the text is the operands,
   the ORDER BY of the whole operation, then the reference clause of the rendering dialect applied to what the limit and offset terms render to (the
   two rendered in the order of their slots), all inside the parentheses and before the alias of an embedding position *)
Theorem C09_every_set_operation : forall (c : ctx) (p : pz) base ops obs lim off alias,
  render c p (TSetOp base ops obs lim off alias) =
    let c1 := setop_ctx c in
    let set_ctx := set_subquery (query_wrap_setops base && negb (dial_eqb (dialect c1) MYSQL)) c1 in
    do (sb, p1) <- render_query (if query_has_tail base then set_subquery true set_ctx else set_ctx) p base;
    do (so, p2) <- render_sops set_ctx (query_selects_len base) p1 ops;
    do (sob, p3) <- render_obys c1 (query_select_aliases base) false p2 obs;
    do (pag, p5) <- (if offset_slot_first (setop_style_cls (dialect c1)) then
                       do (oo, p4) <- render_o c1 p3 off; do (ol, p5) <- render_o c1 p4 lim;
                       Ok (ref_pagination (setop_style_cls (dialect c1)) ol oo (nonempty_strs sob), p5)
                     else
                       do (ol, p4) <- render_o c1 p3 lim; do (oo, p5) <- render_o c1 p4 off;
                       Ok (ref_pagination (setop_style_cls (dialect c1)) ol oo (nonempty_strs sob), p5));
    Ok (alias_if (with_alias c) c1 (paren_if (subquery c) (sb ++ so ++ setop_orderby_text sob ++ pag)) alias, p5).
Proof.
  intros. rewrite render_setop_eq. unfold setop_render, setop_body.
  (* the same operands on both sides; then the clause, for the three styles; then the texts *)
  symmetry. apply bind_map; intros sb p1. apply bind_map; intros so p2. apply bind_map; intros sob p3. apply bind_map_cong.
  - rewrite setop_style_case. pattern (setop_style_cls (dialect (setop_ctx c))). apply setop_style_ind;
      unfold ref_pagination, style_of, offset_slot_first, nonempty_strs;
      destruct lim as [|tl], off as [|to]; cbn [render_o];
      repeat match goal with
      | |- context [render ?cc ?pp ?t] => destruct (render cc pp t) as [[? ?]|?]; cbn [render_o]
      end;
      rewrite ?app_nil_r; try reflexivity; destruct sob; reflexivity.
  - intros pag p5. destruct sob; rewrite <- ?app_assoc; reflexivity.
Qed.
Print Assumptions C09_every_set_operation.

Definition with_alias_q (q : query) (a : str) : query :=
  match q with
  | MkQ cls (MkFl _ a1 a2 a3 a4 a5 a6 a7 a8 a9 a10 a11 a12 a13 a14 a15 a16 a17) f w s fi ui c v wh pw h g o j l of_ u it ut cf cu cw cuw r d =>
      MkQ cls (MkFl (Some a) a1 a2 a3 a4 a5 a6 a7 a8 a9 a10 a11 a12 a13 a14 a15 a16 a17) f w s fi ui c v wh pw h g o j l of_ u it ut cf cu cw cuw r d
  end.

(* The instances below take the clause from the general theorems and evaluate only the text before it, once per class, for symbolic limit and
   offset.  `lazy` computes strong normal forms, so nothing stuck on the symbolic values may be in the goal when it runs: main_plain_select brings
   `pagination` to the surface, where it is replaced by a variable first.  (The alias of a statement is not read outside an embedding position.) *)
Lemma shape_render cls ob lim off p q : q = shape cls lim off ob \/ (exists a, q = with_alias_q (shape cls lim off ob) a) ->
  render_query (ctx_of cls) p q =
  do (s, p') <- pagination the_rens q (clause_ctx q (adjust_ctx q (ctx_of cls))) p; Ok (head cls ob ++ s, p').
Proof.
  intros [->|[a ->]]; rewrite render_query_eq, q_render_complete; destruct cls, ob.
  (* ctx_of cls is a stand-alone context: main_plain_select is stated for these two flags *)
  all: change (subquery _) with false; rewrite main_plain_select by reflexivity; unfold tail_with.
  all: generalize (pagination the_rens); intro pg; lazy -[Z_to_str N_to_str app].
  all: destruct (pg _ _ p) as [[s p']|]; [text_eq | reflexivity].
Qed.

Lemma render_oint c o : render_o c None (oint o) = Ok (option_map Z_to_str o, None).
Proof. destruct o; reflexivity. Qed.

(* inline: the reference clause with the decimal numerals of the values, for all values *)
Theorem C09_inline : forall cls lim off ob,
  render (ctx_of cls) None (TQuery (shape cls lim off ob)) =
  Ok (head cls ob ++ ref_pagination cls (option_map Z_to_str lim) (option_map Z_to_str off) ob, None).
Proof.
  intros cls lim off ob. rewrite render_tquery_eq, (shape_render cls ob lim off) by (left; reflexivity).
  rewrite C09_every_statement. destruct ob, lim, off, cls; reflexivity.
Qed.
Print Assumptions C09_inline.

(* parameterised: placeholders in the slots; the values in the order of their placeholders *)
Definition offset_first (cls : bcls) : bool := match cls with BMSSQL | BOracle => true | _ => false end.
Definition ph (cls : bcls) (k : N) : str := ph_text (placeholder_style (dialect (ctx_of cls))) k.
Definition slots (cls : bcls) (lim off : option Z) : option str * option str * list str :=
  match lim, off with
  | None, None => (None, None, [])
  | Some l, None => (Some (ph cls 1), None, [vid_of l])
  | None, Some o => (None, Some (ph cls 1), [vid_of o])
  | Some l, Some o => if offset_first cls then (Some (ph cls 2), Some (ph cls 1), [vid_of o; vid_of l])
                      else (Some (ph cls 1), Some (ph cls 2), [vid_of l; vid_of o])
  end.

Theorem C09_param : forall cls lim off ob,
  let '(pl, po, vals) := slots cls lim off in
  render (ctx_of cls) (Some (MkPz None [])) (TQuery (shape cls lim off ob)) =
  Ok (head cls ob ++ ref_pagination cls pl po ob, Some (MkPz None vals)).
Proof.
  intros cls lim off ob. rewrite render_tquery_eq, (shape_render cls ob lim off) by (left; reflexivity).
  rewrite C09_every_statement. destruct ob, lim, off, cls; reflexivity.
Qed.
Print Assumptions C09_param.

(* the same clause when the statement is a sub-query in FROM (parenthesised, alias after the clause) *)
Definition outer (cls : bcls) (inner : query) : query :=
  MkQ cls (fl0 cls) (TCons (TQuery inner) TNil) WNil (TCons (TStar None None) TNil) TNil TNil TNil RNil NoT NoT NoT GNil ONil JNil NoT NoT
      UNil NoT NoT TNil CUNil NoT NoT TNil TNil.
(* the outer statement, for any inner one; render_ts and render_query stay folded, or `lazy` would normalise the whole Fixpoint stuck on `inner` *)
Lemma outer_render cls inner p :
  render (ctx_of cls) p (TQuery (outer cls inner)) =
  do (s, p') <- render_query (set_with_alias true (set_subquery true (clause_ctx (outer cls inner) (adjust_ctx (outer cls inner) (ctx_of cls))))) p inner;
  Ok (L "SELECT * FROM " ++ s, p').
Proof.
  rewrite render_tquery_eq, render_query_eq.
  destruct cls; lazy -[render_ts render_query app]; cbn [render_ts render];
    (destruct (render_query _ p inner) as [[s p']|]; [text_eq | reflexivity]).
Qed.

Theorem C09_subquery : forall cls lim off ob,
  render (ctx_of cls) None (TQuery (outer cls (with_alias_q (shape cls lim off ob) (L "sq0")))) =
  Ok (L "SELECT * FROM (" ++ head cls ob ++ ref_pagination cls (option_map Z_to_str lim) (option_map Z_to_str off) ob ++ L ") " ++
      fquote (alias_q (ctx_of cls)) (L "sq0"), None).
Proof.
  intros cls lim off ob.
  rewrite outer_render, embedded_is_standalone, (render_query_ctx _ _ (ctx_of cls)) by (destruct cls; reflexivity).
  rewrite (shape_render cls ob lim off), C09_every_statement by (right; eexists; reflexivity).
  cbn [q_lim q_off with_alias_q shape fl0]. rewrite !render_oint.
  destruct cls, ob; lazy -[ref_pagination option_map Z_to_str N_to_str app]; text_eq.
Qed.

Definition setop (cls : bcls) (lim off : option Z) (ob : bool) : term :=
  TSetOp (shape cls None None false) (SCons Union (TQuery (shape cls None None false)) SNil)
         (if ob then OCons fld None ONil else ONil) (oint lim) (oint off) None.
Definition setop_head (cls : bcls) (ob : bool) : str :=
  paren_if (wrap_set_ops_of cls) (head cls false) ++ L " UNION " ++ paren_if (wrap_set_ops_of cls) (head cls false) ++
  (if ob then L " ORDER BY " ++ fquote (qc cls) (L "a") else []).
(* the reference for a set operation: SQLite/MySQL classes are indistinguishable from the generic class there (known finding
   C09-setop-offset-alone), so OFFSET alone is printed bare for them *)
Definition setop_cls (cls : bcls) : bcls := match cls with BSQLite | BMySQL => BGeneric | c => c end.
Theorem C09_setop : forall cls lim off ob,
  render (ctx_of cls) None (setop cls lim off ob) =
  Ok (setop_head cls ob ++ ref_pagination (setop_cls cls) (option_map Z_to_str lim) (option_map Z_to_str off) ob, None).
Proof.
  intros cls lim off ob. unfold setop. rewrite C09_every_set_operation.
  (* operands and ORDER BY are evaluated; render_o stays folded on the limit and offset terms, which are put behind names for as long *)
  remember (oint lim) as tl eqn:El. remember (oint off) as to eqn:Eo.
  destruct cls, ob; lazy -[render_o ref_pagination option_map Z_to_str N_to_str]; subst tl to; rewrite !render_oint; reflexivity.
Qed.
Print Assumptions C09_setop.

(* the recogniser reads the reference printer's clause back (sampled by computation; digits are arbitrary above) *)
Example C09_recogniser_reads_printer :
  forallb (fun cls => forallb (fun lo => forallb (fun ob : bool =>
    let '(l, o) := lo in
    match render (ctx_of cls) None (TQuery (shape cls l o ob)) with
    | Ok (s, _) => match c09_ok (dialect (ctx_of cls)) (TQuery (shape cls l o ob)) s false [] with Some true => true | _ => false end
    | Exn _ => false
    end) [true; false]) [(None, None); (Some 3, None); (None, Some 4); (Some 0, Some 0); (Some 12, Some 345)]%Z) all_bcls = true.
Proof. vm_compute. reflexivity. Qed.

(* what the code printed before the repairs is rejected by the statement *)
Example C09_old_oracle_refuted :
  c09_ok ORACLE (TQuery (shape BOracle (Some 3%Z) (Some 4%Z) false)) (L "SELECT ""a"" FROM ""t"" FETCH NEXT 3 ROWS ONLY OFFSET 4 ROWS") false [] = Some false.
Proof. vm_compute. reflexivity. Qed.
Example C09_old_sqlite_refuted :
  c09_ok SQLITE (TQuery (shape BSQLite None (Some 7%Z) false)) (L "SELECT ""a"" FROM ""t"" OFFSET 7") false [] = Some false.
Proof. vm_compute. reflexivity. Qed.
(* known finding: OFFSET alone on a set operation of the SQLite / MySQL classes *)
Example C09_setop_offset_alone_refuted :
  match render (ctx_of BSQLite) None (setop BSQLite None (Some 4%Z) false) with
  | Ok (s, _) => c09_ok SQLITE (setop BSQLite None (Some 4%Z) false) s false [] = Some false
  | Exn _ => False
  end.
Proof. vm_compute. reflexivity. Qed.
