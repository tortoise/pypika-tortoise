(* Props/C04.v — C04: parameterised rendering is equivalent to inline rendering.

   Statement judged on every implementation output by ./check C04: Ref.ParamEq.c04_ok (token walk of the two texts, placeholder
   style / count / order, plain values).

   Proved here:
   - C04_thread / C04_inline_none (Proofs/Thread.v): for EVERY term and statement of the model, rendering with a parameterizer only
     APPENDS to the value list (it never drops, reorders or rewrites earlier values, and keeps the caller's placeholder factory), and
     rendering without one produces no list;
   - shape theorems, for ALL values (any kind, symbolic) and all six classes: the parameterised text and the inline text are the SAME
     text around the holes, the k-th hole holding the k-th placeholder resp. the inline literal of the k-th listed value - including the
     shapes whose clauses are rendered out of textual order or late (SQL Server / Oracle offset before limit, MySQL UPDATE .. ORDER BY / LIMIT);
   - C04_styles: the placeholder table regenerated from /repo is the dialects' (numbered for PostgreSQL only). *)
From PT Require Import Base.Str Model.Types Model.Value Model.Syntax Gen.Ctx Gen.Placeholders Model.Render Ref.Lexer Ref.ParamEq Proofs.Thread Proofs.TextEq.
Open Scope N_scope.
Definition tbl : term := TTable (MkTRef true (L "t") [] None 0) NoT NoT.
Definition fld (n : string) : term := TField (L n) None None.
Definition fl0 (cls : bcls) : qflags :=
  MkFl None false false false false false false false false false false false false (wrap_set_ops_of cls) [] [] None (wrapper_of cls).
Definition qn (cls : bcls) (n : string) : str := fquote (quote_char (ctx_of cls)) (L n).
Definition ph (cls : bcls) (k : N) : str := ph_text (placeholder_style (dialect (ctx_of cls))) k.
Definition my (cls : bcls) : bool := dial_eqb (dialect (ctx_of cls)) MYSQL.
Definition lit (cls : bcls) (w : wcls) (v : value) : str := value_sql w (my cls) (L "'") v.

(* SELECT <v1>,a FROM t WHERE b=<v2> ORDER BY a <pagination with v3 (limit) and v4 (offset)> *)
Definition sel_shape (cls : bcls) (v1 v2 v3 v4 : value) (i1 i2 i3 i4 : str) : query :=
  MkQ cls (fl0 cls) (TCons tbl TNil) WNil (TCons (TVal (wrapper_of cls) v1 i1 None true) (TCons (fld "a") TNil)) TNil TNil TNil RNil
      (SomeT (TBasic (CEq Eq) (fld "b") (TVal WPlain v2 i2 None true) None)) NoT NoT GNil (OCons (fld "a") None ONil) JNil
      (SomeT (TVal WPlain v3 i3 None true)) (SomeT (TVal WPlain v4 i4 None true)) UNil NoT NoT TNil CUNil NoT NoT TNil TNil.
(* the text around the four holes, per class: limit-style classes put the limit hole first, SQL Server and Oracle the offset hole *)
Definition sel_text (cls : bcls) (h1 h2 hlim hoff : str) : str :=
  L "SELECT " ++ h1 ++ L "," ++ qn cls "a" ++ L " FROM " ++ qn cls "t" ++ L " WHERE " ++ qn cls "b" ++ L "=" ++ h2 ++ L " ORDER BY " ++ qn cls "a" ++
  match cls with
  | BMSSQL | BOracle => L " OFFSET " ++ hoff ++ L " ROWS FETCH NEXT " ++ hlim ++ L " ROWS ONLY"
  | _ => L " LIMIT " ++ hlim ++ L " OFFSET " ++ hoff
  end.
Definition offset_first (cls : bcls) : bool := match cls with BMSSQL | BOracle => true | _ => false end.

(* evaluation of a rendering with symbolic values: their literals and the numerals stay as they are, `++` is left to text_eq.
   With a parameterizer it stops at each test `should_parameterize v`, which only a hypothesis decides; what follows a test is evaluated
   all the same, as a continuation, so after ONE evaluation every test stands in the goal (a closed term, which `rewrite` finds under
   the binders too), and a second evaluation finishes *)
Ltac ev := lazy -[value_sql should_parameterize app Z_to_str N_to_str].

Theorem C04_shape_select : forall cls v1 v2 v3 v4 i1 i2 i3 i4,
  should_parameterize v1 = true -> should_parameterize v2 = true -> should_parameterize v3 = true -> should_parameterize v4 = true ->
  render (ctx_of cls) None (TQuery (sel_shape cls v1 v2 v3 v4 i1 i2 i3 i4)) =
    Ok (sel_text cls (lit cls (wrapper_of cls) v1) (lit cls WPlain v2) (lit cls WPlain v3) (lit cls WPlain v4), None) /\
  render (ctx_of cls) (Some (MkPz None [])) (TQuery (sel_shape cls v1 v2 v3 v4 i1 i2 i3 i4)) =
    Ok (sel_text cls (ph cls 1) (ph cls 2) (ph cls (if offset_first cls then 4 else 3)) (ph cls (if offset_first cls then 3 else 4)),
        Some (MkPz None (if offset_first cls then [i1; i2; i4; i3] else [i1; i2; i3; i4]))).
Proof.
  intros cls v1 v2 v3 v4 i1 i2 i3 i4 H1 H2 H3 H4.
  destruct cls; (split; ev; [|rewrite H1, H2, H3, H4; ev]; text_eq).
Qed.
Print Assumptions C04_shape_select.

(* MySQL appends ORDER BY / LIMIT of an UPDATE after the generic statement, with the context it was called with *)
Definition upd_shape (cls : bcls) (v1 v2 v3 : value) (i1 i2 i3 : str) : query :=
  MkQ cls (fl0 cls) TNil WNil TNil TNil TNil TNil RNil
      (SomeT (TBasic (CEq Eq) (fld "c") (TVal WPlain v2 i2 None true) None)) NoT NoT GNil (OCons (fld "a") None ONil) JNil
      (SomeT (TVal WPlain v3 i3 None true)) NoT (UCons (fld "a") (TVal (wrapper_of cls) v1 i1 None true) UNil) NoT (SomeT tbl) TNil CUNil NoT NoT TNil TNil.
Definition upd_text (cls : bcls) (h1 h2 h3 : str) : str :=
  L "UPDATE " ++ qn cls "t" ++ L " SET " ++ qn cls "a" ++ L "=" ++ h1 ++ L " WHERE " ++ qn cls "c" ++ L "=" ++ h2 ++
  match cls with
  | BMySQL | BPostgreSQL | BSQLite => L " ORDER BY " ++ qn cls "a" ++ L " LIMIT " ++ h3
  | _ => []
  end.
Definition upd_has_limit (cls : bcls) : bool := match cls with BMySQL | BPostgreSQL | BSQLite => true | _ => false end.
Theorem C04_shape_mysql_update : forall cls v1 v2 v3 i1 i2 i3,
  should_parameterize v1 = true -> should_parameterize v2 = true -> should_parameterize v3 = true ->
  render (ctx_of cls) None (TQuery (upd_shape cls v1 v2 v3 i1 i2 i3)) =
    Ok (upd_text cls (lit cls (wrapper_of cls) v1) (lit cls WPlain v2) (lit cls WPlain v3), None) /\
  render (ctx_of cls) (Some (MkPz None [])) (TQuery (upd_shape cls v1 v2 v3 i1 i2 i3)) =
    Ok (upd_text cls (ph cls 1) (ph cls 2) (ph cls 3), Some (MkPz None (if upd_has_limit cls then [i1; i2; i3] else [i1; i2]))).
Proof.
  intros cls v1 v2 v3 i1 i2 i3 H1 H2 H3.
  destruct cls; (split; ev; [|rewrite H1, H2, ?H3; ev]).
  (* MySQLQueryBuilder.get_sql asks whether the text it has built is empty: with `++` left alone only conversion sees its first character *)
  3,4: change (match _ with [] => _ | _ :: _ => ?x end = ?r) with (x = r).
  all: text_eq.
Qed.
Print Assumptions C04_shape_mysql_update.

(* the SQL Server page clause alone (the offset literal 0 when only a limit is given is not a value) *)
Definition page_shape (cls : bcls) (v3 : value) (i3 : str) : query :=
  MkQ cls (fl0 cls) (TCons tbl TNil) WNil (TCons (fld "a") TNil) TNil TNil TNil RNil NoT NoT NoT GNil ONil JNil
      (SomeT (TVal WPlain v3 i3 None true)) NoT UNil NoT NoT TNil CUNil NoT NoT TNil TNil.
Theorem C04_shape_mssql_page : forall v3 i3, should_parameterize v3 = true ->
  render (ctx_of BMSSQL) None (TQuery (page_shape BMSSQL v3 i3)) =
    Ok (L "SELECT ""a"" FROM ""t"" ORDER BY (SELECT 0) OFFSET 0 ROWS FETCH NEXT " ++ lit BMSSQL WPlain v3 ++ L " ROWS ONLY", None) /\
  render (ctx_of BMSSQL) (Some (MkPz None [])) (TQuery (page_shape BMSSQL v3 i3)) =
    Ok (L "SELECT ""a"" FROM ""t"" ORDER BY (SELECT 0) OFFSET 0 ROWS FETCH NEXT " ++ ph BMSSQL 1 ++ L " ROWS ONLY", Some (MkPz None [i3])).
Proof. intros v3 i3 H3. split; ev; [|rewrite H3; ev]; text_eq. Qed.

(* placeholder styles, regenerated from Parameter.IDX_PLACEHOLDERS *)
Theorem C04_styles :
  placeholder_style POSTGRESQL = PhNumbered (L "$") /\ placeholder_style MYSQL = PhConst (L "%s") /\
  placeholder_style SQLITE = PhConst (L "?") /\ placeholder_style MSSQL = PhConst (L "?") /\ placeholder_style ORACLE = PhConst (L "?") /\
  forall b k, let d := dialect (ctx_of b) in lex d (ph_text (placeholder_style d) (k mod 10)) = Some [TPh (ph_text (placeholder_style d) (k mod 10))].
Proof.
  repeat split. intros b k d. subst d. assert (H : k mod 10 < 10) by (apply N.mod_lt; discriminate).
  destruct (k mod 10) as [|p]; [destruct b; reflexivity|].
  (* the positives of up to four bits; the six above nine contradict H *)
  do 4 (destruct p as [p|p|]; try (destruct b; reflexivity)); destruct p; discriminate H.
Qed.

(* the parameterizer is threaded through EVERY term and statement (mutual induction over the 17 sorts of Model/Syntax.v, Proofs/Thread.v) *)
Theorem C04_thread : forall (t : term) (c : ctx) (z : pzs) (s : str) (p' : pz),
  render c (Some z) t = Ok (s, p') ->
  exists z' ext, p' = Some z' /\ pz_factory z' = pz_factory z /\ pz_vals z' = pz_vals z ++ ext.
Proof.
  intros t c z s p' H. pose proof (thread_term t c (Some z) s p' H) as T. destruct p' as [z'|]; [|destruct T].
  destruct T as [F [ext E]]. exists z', ext. auto.
Qed.
Print Assumptions C04_thread.

Theorem C04_inline_none : forall (t : term) (c : ctx) (s : str) (p' : pz), render c None t = Ok (s, p') -> p' = None.
Proof. intros t c s p' H. pose proof (thread_term t c None s p' H) as T. destruct p'; [destruct T|reflexivity]. Qed.
Print Assumptions C04_inline_none.

Theorem C04_thread_statement : forall (q : query) (c : ctx) (z : pzs) (s : str) (p' : pz),
  render_query c (Some z) q = Ok (s, p') ->
  exists z' ext, p' = Some z' /\ pz_factory z' = pz_factory z /\ pz_vals z' = pz_vals z ++ ext.
Proof. intros q c z s p' H. apply (C04_thread (TQuery q) c z s p'). exact H. Qed.
Print Assumptions C04_thread_statement.

Example C04_nonvacuous :
  c04_ok POSTGRESQL (Some (placeholder_style POSTGRESQL)) (L "SELECT $1,""a"" FROM ""t"" WHERE ""b""=$2 AND ""c"" IN ($3,$4)")
         [PV (VStr (L "it's")); PV (VInt (-5)); PV (VBool true); PV VNone]
         (L "SELECT 'it''s',""a"" FROM ""t"" WHERE ""b""=-5 AND ""c"" IN (true,null)") = Some true /\
  c04_ok MYSQL (Some (placeholder_style MYSQL)) (L "SELECT %s FROM `t` WHERE `b`=%s") [PV (VInt 2); PV (VInt 1)] (L "SELECT 1 FROM `t` WHERE `b`=2") = Some false.
Proof. vm_compute. split; reflexivity. Qed.
