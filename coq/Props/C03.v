(* Props/C03.v — C03: SQLite-dialect statements mean what the builder calls say (engine-checked).   PARTIAL.

   What a proof can carry here is the READING of the rendered text; "a real SQLite engine returns the same rows as the plain transcription"
   needs the semantics of SQLite's compiler and virtual machine, which no installed formalisation provides: that part is established by
   executing both statements on generated databases in ./check C03 (testing; labelled as such in the evidence).

   This file restates, for the SQLite query class, the theorems the reading rests on; each is proved in the file named. *)
From PT Require Import Base.Str Model.Types Model.Value Model.Syntax Gen.Ctx Gen.Enums Gen.Prec Model.Render Ref.Lexer Ref.TreeOf Ref.RowLimit.
From PT Require Props.C05 Props.C06 Props.C07 Props.C09 Props.C11 Props.C13.
Open Scope N_scope.

(* operator grouping: the bracketing tables of the code are the reference grammar's (one listed exception) and the spellings lex to the reference tokens *)
Theorem C03_sqlite_operator_tables :
  (forall op cop, left_needs_parens op (OArith cop) = Props.C06.req_left op cop) /\
  (forall c c', needs_brackets c (Some c') = negb (conn_eqb c' c)) /\
  (forall a, lex SQLITE (arith_sql a) = Some [TOp (arith_std a)]).
Proof.
  split; [exact Props.C06.C06_left_table|]. split; [intros c c'; exact (proj1 (Props.C06.C06_connective_table c c'))|].
  intro a. exact (proj1 (Props.C06.C06_spellings SQLITE) a).
Qed.

(* column references: one source => bare, a join => qualified by the table's name, an aliased source => by the alias *)
Theorem C03_sqlite_qualification : forall tn un c1 c2 c3 c4 c5 c6 c7 c8 c9,
  render (ctx_of BSQLite) None (TQuery (Props.C11.stmt BSQLite (Props.C11.tb tn None) (Props.C11.tb un None) true c1 c2 c3 c4 c5 c6 c7 c8 c9)) =
  Ok (Props.C11.text BSQLite (Props.C11.bare BSQLite tn) (Props.C11.bare BSQLite un) true (Props.C11.qual BSQLite tn c1) (Props.C11.qual BSQLite tn c2)
        (Props.C11.qual BSQLite tn c3) (Props.C11.qual BSQLite tn c4) (Props.C11.qual BSQLite tn c5) (Props.C11.qual BSQLite tn c6) (Props.C11.qual BSQLite tn c7)
        (Props.C11.qual BSQLite tn c8) (Props.C11.qual BSQLite un c9), None).
Proof. intros. apply Props.C11.C11_join_qualified. Qed.

Theorem C03_sqlite_incomplete_is_empty : forall q p, Props.C13.incomplete q = true -> render_query (ctx_of BSQLite) p q = Ok ([], p).
Proof. intros. apply Props.C13.C13_incomplete_is_empty. assumption. Qed.

(* values and names are single tokens decoding to what was supplied *)
Theorem C03_sqlite_literals_identifiers : forall s name,
  lex SQLITE (value_sql WSQLite false [39] (VStr s)) = Some [TStr s] /\ lex SQLITE (fquote (quote_char (ctx_of BSQLite)) name) = Some [TQId name].
Proof.
  intros s name. split.
  - apply (Props.C05.C05_string SQLITE WSQLite s). intro H; discriminate H.
  - exact (proj1 (Props.C07.C07_ident BSQLite name)).
Qed.

(* LIMIT n [OFFSET m]; an offset alone is LIMIT -1 OFFSET m *)
Theorem C03_sqlite_row_limit : forall lim off ob,
  render (ctx_of BSQLite) None (TQuery (Props.C09.shape BSQLite lim off ob)) =
  Ok (Props.C09.head BSQLite ob ++ ref_pagination BSQLite (option_map Z_to_str lim) (option_map Z_to_str off) ob, None).
Proof. intros. apply Props.C09.C09_inline. Qed.

(* what is NOT proved: stated so that it cannot be mistaken *)
Definition C03_not_proved : string :=
  "that a SQLite engine returns, on every database, the rows of the plain transcription: established by execution on generated databases only".
Example C03_scope : C03_not_proved <> EmptyString. Proof. discriminate. Qed.
