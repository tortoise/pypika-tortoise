(* Props/C12.v — C12: aliases are emitted exactly once, where they define a name, for every term kind.

   Statement judged on implementation outputs by ./check C12 (relational: aliased vs un-aliased construction in every defining and operand
   position, for every live Term subclass).  Proved here, per constructor of the model (all plain term kinds): *)
From PT Require Import Base.Str Model.Types Model.Value Model.Syntax Gen.Ctx Gen.Enums Model.Render Proofs.Post.
Open Scope N_scope.

(* the same term without its own alias *)
Definition unalias (t : term) : term :=
  match t with
  | TField n tb _ => TField n tb None | TIndex n _ => TIndex n None
  | TVal w v i _ al => TVal w v i None al | TValTerm w x i _ al => TValTerm w x i None al
  | TNeg x _ => TNeg x None | TArith o l r _ => TArith o l r None | TBasic o l r _ => TBasic o l r None
  | TComplex o l r _ => TComplex o l r None | TNested o nc l r n _ => TNested o nc l r n None
  | TNot x _ => TNot x None | TAll x _ => TAll x None | TIsNull x _ => TIsNull x None
  | TContains x c n _ => TContains x c n None | TBetween x s e _ => TBetween x s e None | TPeriod x s e _ => TPeriod x s e None
  | TBitAnd x v _ => TBitAnd x v None | TCase cs e _ => TCase cs e None
  | TFunc n a sp sf d f o np sch _ => TFunc n a sp sf d f o np sch None
  | TTuple vs _ => TTuple vs None | TArray vs i h _ => TArray vs i h None | TJson j _ => TJson j None
  | TValues f _ => TValues f None | TLiteral r _ => TLiteral r None | TPseudo r _ => TPseudo r None
  | TParam ph i _ => TParam ph i None | TAtTZ f z i _ => TAtTZ f z i None
  | other => other
  end.

(* terms that are not statements / selectables (those are the subject of C10) *)
Definition plain_term (t : term) : bool :=
  match t with
  | TQuery _ | TSetOp _ _ _ _ _ _ | TTable _ _ _ | TAliased _ _ | TStar _ _ | TInterval _ | TRawStr _
  | TCreate _ _ _ _ _ _ _ _ _ _ | TDrop _ _ | TLoad _ _ => false
  | _ => true
  end.

(* (i) DEFINING POSITION: under with_alias = true every term kind prints its un-aliased text followed by exactly its alias *)
Theorem C12_defining_position : forall t c p, plain_term t = true -> with_alias c = true ->
  render c p t = match render c p (unalias t) with
                 | Ok (s, p') => Ok (alias_sql c s (term_alias t), p')
                 | Exn e => Exn e
                 end.
Proof.
  intros t c p Hp Hw. destruct t; try discriminate Hp; cbn [render unalias term_alias]; rewrite ?Hw;
    repeat (apply bind_map; intros); try reflexivity.
  - (* TVal *) destruct p as [z|]; [destruct (should_parameterize v && allow_param); [destruct (create_param c z vid)|]|]; reflexivity.
  - (* TCase *) destruct cs; [reflexivity|]. repeat (apply bind_map; intros). reflexivity.
  - (* TArray *) destruct hasterm, p as [z|]; try reflexivity; apply bind_map; reflexivity.
Qed.

Print Assumptions C12_defining_position.

(* (ii) OPERANDS: the with_alias flag only ever reaches a term's OWN alias: every composite renders all of its operand slots with the flag
   off, so the un-aliased composite renders the same whether or not the position it stands in prints aliases - for every constructor
   (ValueWrapper(<term>) hands its context to the wrapped term unchanged and is excluded) *)
Definition not_valterm (t : term) : bool := match t with TValTerm _ _ _ _ _ => false | _ => true end.
Lemma swa_idem b1 b2 c : set_with_alias b1 (set_with_alias b2 c) = set_with_alias b1 c.
Proof. reflexivity. Qed.
Lemma swa_sub b c b2 : set_with_alias b (set_subcriterion b2 c) = set_subcriterion b2 (set_with_alias b c).
Proof. reflexivity. Qed.
Lemma swa_subq b c b2 : set_with_alias b (set_subquery b2 c) = set_subquery b2 (set_with_alias b c).
Proof. reflexivity. Qed.

Theorem C12_operands_unaliased : forall t c p, plain_term t = true -> not_valterm t = true ->
  render (set_with_alias true c) p (unalias t) = render (set_with_alias false c) p (unalias t).
Proof.
  (* every operand is rendered under set_with_alias false (..), and the setters are written with projections: the two sides are convertible *)
  intros t c p Hp Hv. destruct t; try discriminate Hp; try discriminate Hv; reflexivity.
Qed.
Print Assumptions C12_operands_unaliased.

(* as an operand (flag off) the alias of a flag-respecting term kind is invisible *)
Definition respects_flag (t : term) : bool :=
  match t with
  | TField _ _ _ | TIndex _ _ | TNeg _ _ | TArith _ _ _ _ | TBasic _ _ _ _ | TComplex _ _ _ _ | TNested _ _ _ _ _ _ | TCase _ _ _
  | TFunc _ _ _ _ _ _ _ _ _ _ | TValues _ _ | TPseudo _ _ | TParam _ _ _ => true
  | _ => false
  end.
Theorem C12_operand_alias_invisible : forall t c p, respects_flag t = true -> with_alias c = false ->
  render c p t = render c p (unalias t).
Proof.
  intros t c p Hr Hw. destruct t; try discriminate Hr; cbn [render unalias]; rewrite ?Hw; cbn [alias_if]; reflexivity.
Qed.

(* the classes that print their alias whatever the position: known finding C12-unconditional-alias (the stand-alone form is pinned by the test-suite) *)
Example C12_unconditional_refuted :
  let t := TBasic (CEq Eq) (TField (L "z") None None) (TVal WPlain (VInt 1) [] (Some (L "al")) true) None in
  render default_ctx None t = Ok (L """z""=1 ""al""", None) /\ render default_ctx None t <> render default_ctx None (TBasic (CEq Eq) (TField (L "z") None None) (unalias (TVal WPlain (VInt 1) [] (Some (L "al")) true)) None).
Proof. split; [reflexivity|discriminate]. Qed.

(* (iii) ORDER BY refers to a select item by alias only if the select list carries that alias *)
Theorem C12_groupby_alias_defined : forall c sel p t o r,
  alias_selected (term_alias t) sel = false ->
  render_obys c sel true p (OCons t o r) =
  match render c p t with
  | Ok (s, p1) => match render_obys c sel true p1 r with
                  | Ok (ss, p2) => Ok ((match o with Some d => s ++ [32] ++ order_sql d | None => s end) :: ss, p2)
                  | Exn e => Exn e
                  end
  | Exn e => Exn e
  end.
Proof. intros c sel p t o r H. cbn [render_obys]. rewrite H, andb_false_r. reflexivity. Qed.

(* ... and the ORDER BY of a SET OPERATION (rendered with is_builder = false against the select aliases of its base query) likewise *)
Theorem C12_setop_orderby_alias_defined : forall c sel p t o r,
  alias_selected (term_alias t) sel = false ->
  render_obys c sel false p (OCons t o r) =
  match render c p t with
  | Ok (s, p1) => match render_obys c sel false p1 r with
                  | Ok (ss, p2) => Ok ((match o with Some d => s ++ [32] ++ order_sql d | None => s end) :: ss, p2)
                  | Exn e => Exn e
                  end
  | Exn e => Exn e
  end.
Proof. intros c sel p t o r H. cbn [render_obys]. rewrite H. reflexivity. Qed.

Example C12_nonvacuous :
  render (set_with_alias true default_ctx) None (TArith Add (TField (L "a") None (Some (L "x"))) (TField (L "b") None None) (Some (L "s"))) =
  Ok (L """a""+""b"" ""s""", None).
Proof. reflexivity. Qed.

From PT Require Import Proofs.QueryEq.

Fixpoint all_plain (l : terms) : bool := match l with TNil => true | TCons t r => plain_term t && all_plain r end.
Fixpoint unalias_ts (l : terms) : terms := match l with TNil => TNil | TCons t r => TCons (unalias t) (unalias_ts r) end.
Fixpoint put_aliases (c : ctx) (ss : list str) (l : terms) : list str :=
  match ss, l with
  | s :: ss', TCons t r => alias_sql c s (term_alias t) :: put_aliases c ss' r
  | _, _ => ss
  end.

Lemma render_ts_defining : forall l c p, all_plain l = true -> with_alias c = true ->
  render_ts c p l = match render_ts c p (unalias_ts l) with
                    | Ok (ss, p') => Ok (put_aliases c ss l, p')
                    | Exn e => Exn e
                    end.
Proof.
  induction l as [|t r IH]; intros c p Hp Hw; [reflexivity|].
  cbn [all_plain] in Hp. apply andb_prop in Hp. destruct Hp as [Ht Hr].
  cbn [render_ts unalias_ts]. rewrite (C12_defining_position t c p Ht Hw).
  destruct (render c p (unalias t)) as [[s p1]|e]; [|reflexivity].
  rewrite (IH c p1 Hr Hw).
  destruct (render_ts c p1 (unalias_ts r)) as [[ss p2]|e]; reflexivity.
Qed.

(* the select list of EVERY statement of the model: each item is its un-aliased rendering followed by exactly its own alias *)
Theorem C12_select_list_defines_aliases : forall (q : query) (c : ctx) (p : pz),
  all_plain (q_selects q) = true ->
  r_ts the_rens (set_with_alias true (set_subquery true c)) p (q_selects q) =
    match r_ts the_rens (set_with_alias true (set_subquery true c)) p (unalias_ts (q_selects q)) with
    | Ok (ss, p') => Ok (put_aliases (set_with_alias true (set_subquery true c)) ss (q_selects q), p')
    | Exn e => Exn e
    end.
Proof. intros q c p H. cbn [r_ts the_rens]. apply render_ts_defining; [exact H | reflexivity]. Qed.
Print Assumptions C12_select_list_defines_aliases.

(* the filter clauses of EVERY statement (WHERE, PREWHERE, HAVING are rendered under the clause context with sub-queries parenthesised):
   the alias of a flag-respecting operand is invisible there, whatever flags the embedding position handed down *)
Theorem C12_filter_clauses_ignore_aliases : forall (q : query) (c0 : ctx) (p : pz) (t : term),
  respects_flag t = true ->
  let c := set_subquery true (clause_ctx q (adjust_ctx q c0)) in
  render_o c p (SomeT t) = render_o c p (SomeT (unalias t)).
Proof.
  intros q c0 p t Hr c. cbn [render_o].
  rewrite (C12_operand_alias_invisible t c p Hr); [reflexivity|].
  destruct (q_cls q); reflexivity.
Qed.
Print Assumptions C12_filter_clauses_ignore_aliases.
