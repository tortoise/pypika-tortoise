(* Props/C13.v — C13: statements are well-formed and independent of the order of commuting calls.

   Judged on implementation outputs by ./check C13: Ref.Clauses.wellformed in Coq on every statement (clause order, no repetition, balanced brackets,
   closed quotes); incomplete builders render ""; the EXHAUSTIVE sweep over ordered pairs of builder methods (both orders give the same SQL where the
   calls address different clauses; repeated calls accumulate in call order).

   Proved here: (ii) the clauses of every plain SELECT, generic UPDATE, DELETE and INSERT .. VALUES come in one order, each at most once and under
   its own keyword; (iii) for ALL builders of the model, an incomplete one renders the empty string in every context; (iv) the frame theorem - two
   state transformers whose read/write footprints do not interfere commute, on any store - and, by computation on the footprints regenerated from
   /repo on every run, which pairs of builder methods it applies to. *)
From PT Require Import Base.Str Model.Types Model.Syntax Model.Render Ref.Clauses Gen.Footprints Ref.RowLimit Proofs.Post Proofs.TextEq Proofs.QueryEq Proofs.PaginationAll Proofs.ClauseOrder.
Open Scope N_scope.

(* (iii) an incomplete builder renders the empty string *)
Definition incomplete (q : query) : bool :=
  match q with
  | MkQ _ (MkFl _ delete_from _ _ _ _ _ _ _ _ _ _ _ _ _ _ _ _) _ _ selects _ _ _ values _ _ _ _ _ _ _ _ updates insert_table update_table _ _ _ _ _ _ =>
      let has_sel := is_nonempty_terms selects in let has_ins := is_some_t insert_table in let has_upd := is_some_t update_table in
      negb (has_sel || has_ins || delete_from || has_upd) ||
      (has_ins && negb (has_sel || match values with RNil => false | _ => true end)) ||
      (has_upd && negb (match updates with UNil => false | _ => true end))
  end.
Theorem C13_incomplete_is_empty : forall q c p, incomplete q = true -> render_query c p q = Ok ([], p).
Proof.
  intros q c p H. assert (Hc : complete q = false) by (destruct q as [? []]; apply negb_false_iff; exact H).
  rewrite render_query_eq, q_render_complete, Hc. reflexivity.
Qed.
Print Assumptions C13_incomplete_is_empty.

(* (iv) the frame theorem: non-interfering transformers commute *)
Section Frame.
  Variables (attr val : Type) (mem : attr -> list attr -> bool).
  Definition store := attr -> val.
  (* f writes only W, and what it writes depends only on R *)
  Definition respects (f : store -> store) (R W : list attr) : Prop :=
    (forall s a, mem a W = false -> f s a = s a) /\
    (forall s s', (forall a, mem a R = true -> s a = s' a) -> forall a, mem a W = true -> f s a = f s' a).
  Definition disjoint (X Y : list attr) : Prop := forall a, mem a X = true -> mem a Y = false.

  Theorem frame_commute : forall f g Rf Wf Rg Wg,
    respects f Rf Wf -> respects g Rg Wg ->
    disjoint Wf Rg -> disjoint Wf Wg -> disjoint Wg Rf -> disjoint Wg Wf ->
    forall s a, f (g s) a = g (f s) a.
  Proof.
    intros f g Rf Wf Rg Wg [Ff Df] [Fg Dg] H1 H2 H3 H4 s a.
    destruct (mem a Wf) eqn:Ef; destruct (mem a Wg) eqn:Eg.
    - rewrite (H2 a Ef) in Eg. discriminate.
    - (* a written by f only *)
      rewrite (Fg (f s) a Eg). apply Df; [|exact Ef]. intros b Hb. apply Fg.
      destruct (mem b Wg) eqn:E; [|reflexivity]. rewrite (H3 b E) in Hb. discriminate.
    - rewrite (Ff (g s) a Ef). symmetry. apply Dg; [|exact Eg]. intros b Hb. apply Ff.
      destruct (mem b Wf) eqn:E; [|reflexivity]. rewrite (H1 b E) in Hb. discriminate.
    - rewrite (Ff (g s) a Ef), (Fg s a Eg), (Fg (f s) a Eg), (Ff s a Ef). reflexivity.
  Qed.
End Frame.
Print Assumptions frame_commute.

(* the computed table: which pairs of builder methods the frame theorem applies to *)
Definition memb (x : str) (l : list str) : bool := existsb (seqb x) l.
Definition inter (a b : list str) : bool := existsb (fun x => memb x b) a.
Definition fp := (str * str * list str * list str * bool)%type.
Definition noninterfering (x y : fp) : bool :=
  let '(_, _, r1, w1, u1) := x in let '(_, _, r2, w2, u2) := y in
  negb u1 && negb u2 && negb (inter w1 r2) && negb (inter w1 w2) && negb (inter w2 r1).
Definition of_class (c : str) : list fp := filter (fun e => let '(cn, _, _, _, _) := e in seqb cn c) footprints.
Definition name_of (e : fp) : str := let '(_, m, _, _, _) := e in m.
Definition commuting_pairs (c : str) : list (str * str) :=
  flat (map (fun x => flat (map (fun y => if noninterfering x y then [(name_of x, name_of y)] else []) (of_class c))) (of_class c)).

(* the clause-setting calls that by their footprints cannot interfere: proved to commute by frame_commute (given that the footprints describe the methods) *)
Definition must_commute : list (str * str) :=
  [ (L "limit", L "offset"); (L "limit", L "where"); (L "offset", L "orderby"); (L "distinct", L "where"); (L "distinct", L "groupby");
    (L "having", L "orderby"); (L "having", L "where"); (L "groupby", L "orderby"); (L "for_update", L "where"); (L "force_index", L "use_index");
    (L "force_index", L "where"); (L "limit", L "having"); (L "with_", L "where"); (L "with_totals", L "having"); (L "select", L "where");
    (L "select", L "orderby"); (L "select", L "limit"); (L "select", L "having"); (L "groupby", L "having"); (L "set", L "where"); (L "columns", L "insert");
    (L "join+on", L "limit"); (L "join+on", L "distinct"); (L "orderby", L "where"); (L "groupby", L "where") ].
Definition pair_in (p : str * str) (l : list (str * str)) : bool :=
  existsb (fun q => (seqb (fst p) (fst q) && seqb (snd p) (snd q)) || (seqb (fst p) (snd q) && seqb (snd p) (fst q))) l.
(* the same question without the quadratic table commuting_pairs c: the entries named like a member of the pair are picked out first *)
Definition commute_in (l : list fp) (p : str * str) : bool :=
  let l' := filter (fun e => seqb (fst p) (name_of e) || seqb (snd p) (name_of e)) l in
  existsb (fun x => existsb (fun y => pair_in p [(name_of x, name_of y)] && noninterfering x y) l') l'.
Lemma pair_in_commuting c p : pair_in p (commuting_pairs c) = commute_in (of_class c) p.
Proof.
  unfold commuting_pairs, commute_in, pair_in at 1. rewrite existsb_flat_map, existsb_filter. apply existsb_ext. intro x.
  rewrite existsb_flat_map, existsb_filter, <- existsb_andb_l. apply existsb_ext. intro y.
  (* for each x and y both sides are one boolean function of noninterfering x y and the four name tests *)
  destruct (noninterfering x y); cbn;
    destruct (seqb (fst p) (name_of x)), (seqb (snd p) (name_of x)), (seqb (fst p) (name_of y)), (seqb (snd p) (name_of y)); reflexivity.
Qed.
Theorem C13_footprints_allow_commutation :
  forallb (fun c => forallb (fun p => pair_in p (commuting_pairs c)) must_commute)
          [L "QueryBuilder"; L "MySQLQueryBuilder"; L "PostgreSQLQueryBuilder"; L "SQLLiteQueryBuilder"; L "MSSQLQueryBuilder"; L "OracleQueryBuilder"] = true.
Proof.
  rewrite (forallb_ext _ (fun c => forallb (commute_in (of_class c)) must_commute)).
  - vm_compute. reflexivity.
  - intro c. apply forallb_ext. intro p. apply pair_in_commuting.
Qed.
Print Assumptions C13_footprints_allow_commutation.

(* (ii) clause order, for EVERY plain SELECT statement of the model (any clauses and operands, any context, any parameterizer state): the text is
   WITH, SELECT, FROM, index hints, joins, PREWHERE, WHERE, GROUP BY, HAVING, ORDER BY, row limit, FOR UPDATE - in this one order, each clause at most
   once, each empty or introduced by its own keyword, the row limit being the dialect's reference clause.  The statement holds clauses in fields, so
   the order in which the builder calls were made cannot reach the text except through the contents of the fields. *)
Theorem C13_select_clause_order : forall (q : query) (c0 : ctx) (p : pz) (s : str) (p' : pz),
  plain_select q = true ->
  render_query (standalone c0) p q = Ok (s, p') ->
  let c := clause_ctx q (adjust_ctx q (standalone c0)) in
  exists sw ssel sf sfi sui sj spw swh sg sh so sp ol oo,
    s = sw ++ ssel ++ sf ++ sfi ++ sui ++ sj ++ spw ++ swh ++ sg ++ sh ++ so ++ sp ++ for_update_sql q c /\
    kw_or_empty (L "WITH ") sw /\ (exists r, ssel = L "SELECT " ++ r) /\
    kw_or_empty (L " FROM ") sf /\ kw_or_empty (L " FORCE INDEX (") sfi /\ kw_or_empty (L " USE INDEX (") sui /\ kw_or_empty [32] sj /\
    kw_or_empty (L " PREWHERE ") spw /\ kw_or_empty (L " WHERE ") swh /\ kw_or_empty (L " GROUP BY ") sg /\ kw_or_empty (L " HAVING ") sh /\
    kw_or_empty (L " ORDER BY ") so /\ sp = ref_pagination (q_cls q) ol oo (has_order q).
Proof.
  intros q c0 p s p' Hs H c. revert s p' H. destruct (plain_select_inv q Hs) as (_ & _ & _ & Hoc & _ & Hc).
  rewrite render_query_eq, q_render_complete, Hc. destruct (standalone_flags c0) as [-> ->].
  rewrite (main_plain_select the_rens q _ _ p Hs).
  eapply post_bind; [exact (with_sql_shape the_rens q c p)|]. intros sw p1 Hsw.
  eapply post_bind; [exact (select_sql_shape the_rens q c p1)|]. intros ssel p2 Hsel.
  intros s p' H.
  destruct (tail_shape the_rens q c _ _ _ _ Hoc H) as (sf & sfi & sui & sj & spw & swh & sg & sh & so & sp & pa & pb & Es & K1 & K2 & K3 & K4 & K5 & K6 & K7 & K8 & K9 & Ep).
  destruct (pagination_text q c pa sp pb Ep) as (ol & oo & Esp).
  exists sw, ssel, sf, sfi, sui, sj, spw, swh, sg, sh, so, sp, ol, oo.
  repeat split; try assumption. rewrite Es, app_nil_r, <- !app_assoc. reflexivity.
Qed.
Print Assumptions C13_select_clause_order.


(* the same for EVERY UPDATE statement of the generic / MySQL / SQL Server / Oracle form: WITH, UPDATE <table>, joins, SET, FROM, WHERE *)
Theorem C13_update_clause_order : forall (q : query) (c : ctx) (p : pz) (s : str) (p' : pz),
  generic_update the_rens q c p = Ok (s, p') ->
  exists sw st sj ss sf swh,
    s = sw ++ L "UPDATE " ++ st ++ sj ++ ss ++ sf ++ swh /\
    kw_or_empty (L "WITH ") sw /\ kw_or_empty [32] sj /\ (exists r, ss = L " SET " ++ r) /\ kw_or_empty (L " FROM ") sf /\ kw_or_empty (L " WHERE ") swh.
Proof.
  intros q c p. unfold generic_update.
  eapply post_bind; [exact (with_sql_shape the_rens q c p)|]. intros sw p1 Hsw.
  eapply post_bind; [apply post_true|]. intros st p2 _.
  eapply post_bind; [exact (joins_sql_shape the_rens q c p2)|]. intros sj p3 Hsj.
  eapply post_bind; [exact (set_sql_shape the_rens q c p3)|]. intros ss p4 Hss.
  eapply post_bind; [exact (from_sql_shape the_rens q c p4)|]. intros sf p5 Hsf.
  eapply post_bind; [exact (where_sql_shape the_rens q c p5)|]. intros swh p6 Hswh.
  apply post_ret. exists sw, st, sj, ss, sf, swh. repeat split; assumption.
Qed.
Print Assumptions C13_update_clause_order.


(* EVERY DELETE statement: DELETE, then FROM, index hints, joins, PREWHERE, WHERE, GROUP BY, HAVING, ORDER BY, row limit, FOR UPDATE *)
Theorem C13_delete_clause_order : forall (q : query) (c : ctx) (p : pz) (s : str) (p' : pz),
  has_upd q = false -> q_delete_from q = true -> q_on_conflict q = false ->
  generic_with the_rens q c false false p = Ok (s, p') ->
  exists sf sfi sui sj spw sw sg sh so sp pa pb,
    s = L "DELETE" ++ sf ++ sfi ++ sui ++ sj ++ spw ++ sw ++ sg ++ sh ++ so ++ sp ++ for_update_sql q c /\
    kw_or_empty (L " FROM ") sf /\ kw_or_empty (L " FORCE INDEX (") sfi /\ kw_or_empty (L " USE INDEX (") sui /\ kw_or_empty [32] sj /\
    kw_or_empty (L " PREWHERE ") spw /\ kw_or_empty (L " WHERE ") sw /\ kw_or_empty (L " GROUP BY ") sg /\ kw_or_empty (L " HAVING ") sh /\
    kw_or_empty (L " ORDER BY ") so /\ pagination the_rens q c pa = Ok (sp, pb).
Proof.
  intros q c p s p' Hu Hd Hoc H. unfold generic_with in H. rewrite Hu, Hd in H.
  exact (tail_shape the_rens q c (L "DELETE") p s p' Hoc H).
Qed.
Print Assumptions C13_delete_clause_order.

(* EVERY INSERT .. VALUES statement: WITH, INSERT INTO / REPLACE INTO / INSERT IGNORE INTO <table>, the column list, VALUES (rows), the upsert part *)
Theorem C13_insert_clause_order : forall (q : query) (c : ctx) (p : pz) (s : str) (p' : pz),
  has_upd q = false -> q_delete_from q = false -> q_select_into q = false -> has_ins q = true -> has_vals q = true ->
  generic_with the_rens q c false false p = Ok (s, p') ->
  exists sw kw st sc rows s1 s2,
    s = sw ++ kw ++ st ++ sc ++ L " VALUES (" ++ rows ++ L ")" ++ s1 ++ s2 /\
    kw_or_empty (L "WITH ") sw /\ insert_kw kw /\ kw_or_empty (L " (") sc /\ (q_on_conflict q = false -> s1 = [] /\ s2 = []).
Proof.
  intros q c p s p' Hu Hd Hsi Hi Hv. revert s p'. unfold generic_with. rewrite Hu, Hd, Hsi, Hi, Hv.
  eapply post_bind; [exact (with_sql_shape the_rens q c p)|]. intros sw p1 Hsw.
  eapply post_bind; [apply post_true|]. intros st p2 _.
  eapply post_bind; [destruct (q_columns q); [apply kw_empty | apply kw_clause]|]. intros sc p3 Hsc.
  eapply post_bind; [apply post_true|]. intros sr p4 _.
  set (kw := if q_replace_ q then L "REPLACE INTO "
             else match q_cls q with BMySQL => if q_do_nothing q then L "INSERT IGNORE INTO " else L "INSERT INTO " | _ => L "INSERT INTO " end).
  assert (Hk : insert_kw kw).
  { unfold kw, insert_kw. destruct (q_replace_ q); [auto|]. destruct (q_cls q); auto. destruct (q_do_nothing q); auto. }
  assert (Ht : forall s1 s2, ((sw ++ kw ++ st) ++ sc ++ L " VALUES (" ++ join (L "),(") sr ++ L ")") ++ s1 ++ s2 =
                             sw ++ kw ++ st ++ sc ++ L " VALUES (" ++ join (L "),(") sr ++ L ")" ++ s1 ++ s2) by (intros; text_eq).
  destruct (q_on_conflict q).
  - eapply post_bind; [apply post_true|]. intros s1 p5 _. eapply post_bind; [apply post_true|]. intros s2 p6 _.
    apply post_ret. exists sw, kw, st, sc, (join (L "),(") sr), s1, s2. repeat split; try assumption; try discriminate. apply Ht.
  - apply post_ret. exists sw, kw, st, sc, (join (L "),(") sr), [], []. repeat split; try assumption.
    rewrite <- (Ht [] []), !app_nil_r. reflexivity.
Qed.
Print Assumptions C13_insert_clause_order.

Example C13_wellformed_examples :
  wellformed SQLITE BGeneric (L "WITH c AS (SELECT ""a"" FROM ""t"") SELECT DISTINCT ""a"",COUNT(*) FROM ""t"" JOIN ""u"" ON ""t"".""a""=""u"".""a"" LEFT JOIN ""v"" USING (""a"") WHERE ""b""=1 GROUP BY ""a"" HAVING COUNT(*)>1 ORDER BY ""a"" LIMIT 1 OFFSET 2 FOR UPDATE") = Some true /\
  wellformed SQLITE BGeneric (L "SELECT ""a"" FROM ""t"" WHERE ""b""=1 WHERE ""c""=2") = Some false /\
  wellformed SQLITE BGeneric (L "SELECT ""a"" FROM ""t"" ORDER BY ""a"" WHERE ""b""=1") = Some false /\
  wellformed SQLITE BGeneric (L "SELECT (""a"" FROM ""t""") = Some false /\
  wellformed SQLITE BGeneric (L "UPDATE ""t"" SET  WHERE ""a""=1") = Some true /\
  wellformed MSSQL BMSSQL (L "SELECT ""a"" FROM ""t"" ORDER BY ""a"" OFFSET 1 ROWS FETCH NEXT 2 ROWS ONLY") = Some true /\
  wellformed MSSQL BMSSQL (L "SELECT ""a"" FROM ""t"" FETCH NEXT 2 ROWS ONLY OFFSET 1 ROWS") = Some false /\
  wellformed POSTGRESQL BPostgreSQL (L "UPDATE ""t"" SET ""a""=1 FROM ""u"" JOIN ""v"" ON ""u"".""a""=""v"".""a"" WHERE ""t"".""b""=2 RETURNING ""t"".""a""") = Some true.
Proof. vm_compute. repeat split. Qed.
