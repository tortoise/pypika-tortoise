(* Proofs/ClassFree.v — which builder class built a SELECT statement does not matter to its text, as long as the statement uses none of the
   class-specific features (row limit, TOP, MySQL modifiers, DISTINCT ON, upsert, RETURNING): every convention is read from the CONTEXT. *)
From PT Require Import Base.Str Model.Types Model.Syntax Model.Render Proofs.QueryEq Proofs.ClauseOrder.
Open Scope N_scope.

Definition with_cls (D : bcls) (q : query) : query :=
  match q with
  | MkQ _ fl from withs selects force_idx use_idx columns values wheres prewheres havings groupbys orderbys joins_ lim off
        updates insert_table update_table conflict_fields conflict_updates conflict_wheres conflict_update_wheres returns distinct_on =>
    MkQ D fl from withs selects force_idx use_idx columns values wheres prewheres havings groupbys orderbys joins_ lim off
        updates insert_table update_table conflict_fields conflict_updates conflict_wheres conflict_update_wheres returns distinct_on
  end.

Definition is_none_z (o : option Z) : bool := match o with None => true | Some _ => false end.
Definition is_nil_strs (l : list str) : bool := match l with [] => true | _ => false end.
Definition class_free (q : query) : bool :=
  plain_select q && negb (is_some_t (q_lim q)) && negb (is_some_t (q_off q)) && is_none_z (q_top q) &&
  is_nil_strs (q_modifiers q) && negb (is_nonempty_terms (q_distinct_on q)).

Section CF.
Variables (D : bcls) (q : query) (c : ctx).
Let R := the_rens.

Ltac cf := destruct q; reflexivity.
Lemma cf_with : with_sql R (with_cls D q) c = with_sql R q c.            Proof. cf. Qed.
Lemma cf_from : from_sql R (with_cls D q) c = from_sql R q c.            Proof. cf. Qed.
Lemma cf_joins : joins_sql R (with_cls D q) c = joins_sql R q c.         Proof. cf. Qed.
Lemma cf_where : where_sql R (with_cls D q) c = where_sql R q c.         Proof. cf. Qed.
Lemma cf_prewhere : prewhere_sql R (with_cls D q) c = prewhere_sql R q c. Proof. cf. Qed.
Lemma cf_orderby : orderby_sql R (with_cls D q) c = orderby_sql R q c.   Proof. cf. Qed.
Lemma cf_forupd : for_update_sql (with_cls D q) c = for_update_sql q c.  Proof. cf. Qed.
Lemma cf_ns : clause_ctx (with_cls D q) c = clause_ctx q c.              Proof. cf. Qed.
Lemma cf_plain : plain_select (with_cls D q) = plain_select q.           Proof. cf. Qed.
Lemma cf_free : class_free (with_cls D q) = class_free q.                Proof. cf. Qed.
Lemma cf_alias : q_alias (with_cls D q) = q_alias q.                     Proof. cf. Qed.
End CF.

Lemma class_free_inv q : class_free q = true ->
  plain_select q = true /\ q_lim q = NoT /\ q_off q = NoT /\ q_top q = None /\ q_modifiers q = [] /\ q_distinct_on q = TNil.
Proof.
  unfold class_free. rewrite !andb_true_iff. intros (((((Hp & Hl) & Ho) & Ht) & Hm) & Hd). repeat split; [exact Hp | ..].
  - destruct (q_lim q); [reflexivity | discriminate Hl].
  - destruct (q_off q); [reflexivity | discriminate Ho].
  - destruct (q_top q); [discriminate Ht | reflexivity].
  - destruct (q_modifiers q); [reflexivity | discriminate Hm].
  - destruct (q_distinct_on q); [reflexivity | discriminate Hd].
Qed.

(* the statement with the absent features and the fields of a plain SELECT written out: what is left of a clause no longer reads the
   class, so the statement built by the generic class serves as the normal form *)
Ltac expose q H :=
  let Hp := fresh in
  destruct (class_free_inv q H) as (Hp & ? & ? & ? & ? & ?); destruct (plain_select_inv q Hp) as (? & ? & ? & ? & ? & _);
  destruct q as [cls []]; cbn in *; subst.

Lemma cf_select q c : class_free q = true -> select_sql the_rens (with_cls BGeneric q) c = select_sql the_rens q c.
Proof. intro H. expose q H. destruct cls; reflexivity. Qed.

Lemma cf_tail q c : class_free q = true ->
  tail_with the_rens (with_cls BGeneric q) c false false = tail_with the_rens q c false false.
Proof.
  intro H. unfold tail_with. rewrite cf_from, cf_joins, cf_prewhere, cf_where, cf_orderby, cf_forupd.
  expose q H. destruct cls; reflexivity.
Qed.

Lemma plain_selectable q : plain_select q = true -> selectable q = true.
Proof. intro H. destruct (plain_select_inv q H) as (Hu & _ & Hi & Hoc & _). unfold selectable. rewrite Hu, Hi, Hoc. reflexivity. Qed.

(* the classes whose get_sql copies the context first (no GROUP BY alias) *)
Definition adjusts (b : bcls) : bool := match b with BMSSQL | BOracle => true | _ => false end.
Lemma adjust_noop0 q c : (adjusts (q_cls q) = true -> groupby_alias c = false) -> adjust_ctx q c = c.
Proof. intro H. destruct q as [cls], c; cbn in *; destruct cls; cbn in *; try reflexivity; rewrite H; reflexivity. Qed.

Lemma cf_complete D q : complete (with_cls D q) = complete q.   Proof. destruct q; reflexivity. Qed.
Lemma with_cls_twice D D' q : with_cls D (with_cls D' q) = with_cls D q.   Proof. destruct q; reflexivity. Qed.
Lemma with_cls_cls D q : q_cls (with_cls D q) = D.                           Proof. destruct q; reflexivity. Qed.

Lemma class_free_render q c p : class_free q = true -> (adjusts (q_cls q) = true -> groupby_alias c = false) ->
  render_query c p q = render_query c p (with_cls BGeneric q).
Proof.
  intros Hf Hg. destruct (class_free_inv q Hf) as (Hp & _).
  assert (HpG : plain_select (with_cls BGeneric q) = true) by (rewrite cf_plain; exact Hp).
  rewrite !render_query_eq, !q_render_complete, cf_complete. destruct (complete q); [|reflexivity].
  rewrite (adjust_noop0 q), (adjust_noop0 (with_cls BGeneric q)), cf_ns by (rewrite ?with_cls_cls; discriminate || assumption).
  rewrite (main_wrap the_rens _ c c _ _ _ p (plain_selectable _ HpG)), (main_wrap the_rens q c c _ _ _ p (plain_selectable _ Hp)).
  rewrite (main_plain_select the_rens _ c _ p HpG), (main_plain_select the_rens _ c _ p Hp).
  rewrite cf_with, (cf_select q _ Hf), (cf_tail q _ Hf).
  unfold then_wrap, wrap. rewrite cf_alias. reflexivity.
Qed.

Theorem builder_class_irrelevant : forall (D D' : bcls) (q : query) (c : ctx) (p : pz),
  class_free q = true ->
  (adjusts D || adjusts D' = true -> groupby_alias c = false) ->
  render_query c p (with_cls D q) = render_query c p (with_cls D' q).
Proof.
  intros D D' q c p Hf Hg.
  rewrite (class_free_render (with_cls D q)), (class_free_render (with_cls D' q)), !with_cls_twice; rewrite ?cf_free, ?with_cls_cls;
    try reflexivity; try exact Hf; intro A; apply Hg; rewrite A; [apply orb_true_r | reflexivity].
Qed.
