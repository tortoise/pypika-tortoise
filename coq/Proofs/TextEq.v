(* Proofs/TextEq.v — two texts built with ++ from the same pieces in the same order are equal, however the ++ are nested.
   The renderers nest them clause by clause, the shape theorems of Props/ write the expected text flat, and a piece that does not
   reduce (the doubled form of a symbolic name, the numeral of a symbolic integer) keeps evaluation from re-nesting what follows it.
   So a text is reified into a tree, whose normal form nf appends in one direction only: equal normal forms, equal texts. *)
From PT Require Import Base.Str.
Open Scope N_scope.

Inductive tx := XNil | XCh (c : char) (r : tx) | XAt (a : str) | XApp (x y : tx).

Fixpoint den (t : tx) : str :=
  match t with XNil => [] | XCh c r => c :: den r | XAt a => a | XApp x y => den x ++ den y end.

(* den t ++ k, every ++ nested to the right *)
Fixpoint nf (t : tx) (k : str) : str :=
  match t with XNil => k | XCh c r => c :: nf r k | XAt a => a ++ k | XApp x y => nf x (nf y k) end.

Lemma nf_den t : forall k, nf t k = den t ++ k.
Proof. induction t as [|c r IH|a|x IHx y IHy]; intro k; cbn [nf den app]; rewrite ?IH, ?IHx, ?IHy, ?app_assoc; reflexivity. Qed.

Lemma tx_eq x y : nf x [] = nf y [] -> den x = den y.
Proof. rewrite !nf_den, !app_nil_r. exact (fun H => H). Qed.

Ltac reify s :=
  lazymatch s with
  | [] => constr:(XNil)
  | ?c :: ?r => let r' := reify r in constr:(XCh c r')
  | ?x ++ ?y => let x' := reify x in let y' := reify y in constr:(XApp x' y')
  | _ => constr:(XAt s)
  end.

(* closes l = r, and f (l, p) = f (r, p), for texts l and r that differ in the nesting of ++ only; to be called after the evaluation
   that brought both sides down to characters, ++ and irreducible pieces *)
Ltac text_eq :=
  lazymatch goal with
  (* MySQLQueryBuilder.get_sql branches on whether the text it has built is empty, which matters to UPDATE only: where evaluation
     cannot see the first character for a ++ that does not reduce, both branches are the same *)
  | |- match _ with [] => _ | _ :: _ => _ end = _ => rewrite list_case_same; text_eq
  | |- ?f (?l, ?p) = _ (?r, _) => let x := reify l in let y := reify r in exact (f_equal (fun s => f (s, p)) (tx_eq x y eq_refl))
  | |- ?l = ?r => let x := reify l in let y := reify r in exact (tx_eq x y eq_refl)
  end.
