(* Proofs/LexLit.v — unquoted literals as the library prints them (Model.Value) are read back by the
   reference lexer (Ref.Lexer) as the original: all integers, in every dialect; the lexer states
   from which a fresh token starts; the reference decoder of JSON string bodies, and json.dumps
   against it for all strings.  Quoted tokens are in LexQuoted.v. *)
From PT Require Import Base.Str Model.Value Ref.Lexer.
From Coq Require Import Lia ZifyBool.
Open Scope N_scope.

(* a text written character by character (e c for c) is read back by an automaton that keeps the characters
   read so far, latest first, provided it reads each e c as c *)
Lemma fold_left_decode {St A B} (step : St -> A -> St) (e : B -> list A) (enc : list B -> list A) (inj : list B -> St) :
  enc [] = [] -> (forall c s, enc (c :: s) = e c ++ enc s) ->
  forall s, (forall c, In c s -> forall acc, fold_left step (e c) (inj acc) = inj (c :: acc)) ->
  forall acc, fold_left step (enc s) (inj acc) = inj (List.rev s ++ acc).
Proof.
  intros Enil Econs. induction s as [|c s IH]; intros He acc.
  - rewrite Enil. reflexivity.
  - rewrite Econs, fold_left_app, He by (left; reflexivity).
    rewrite IH by (intros c' Hc'; apply He; right; exact Hc').
    cbn [List.rev]. rewrite <- app_assoc. reflexivity.
Qed.

Lemma run_digits cfg acc out s :
  all_digits s = true -> run cfg (MNum NInt acc, out) s = (MNum NInt (rev s ++ acc), out).
Proof.
  intro H. revert acc.
  apply (fold_left_decode (step cfg) (fun c => [c]) (fun s => s) (fun acc => (MNum NInt acc, out))); [reflexivity|reflexivity|].
  intros c Hc acc. cbn [fold_left step]. rewrite (proj1 (forallb_forall _ _) H c Hc). reflexivity.
Qed.

(* a digit passes none of the tests that start makes before is_digit *)
Lemma start_digit cfg out c : is_digit c = true -> start cfg out c = (MNum NInt [c], out).
Proof.
  intro Hc. unfold start.
  assert (H : is_space c = false /\ (c =? 39) = false /\ (c =? 34) = false /\ (c =? 96) = false)
    by (unfold is_space, is_digit in *; lia).
  destruct H as (-> & -> & -> & ->). rewrite Hc. reflexivity.
Qed.

Lemma flush_digits cfg c s out :
  all_digits s = true -> flush (run cfg (MNum NInt [c], out) s) = Some (rev (TNum (c :: s) :: out)).
Proof.
  intro Hs. rewrite run_digits by assumption. cbn [flush]. rewrite rev_app_distr, rev_involutive. reflexivity.
Qed.

Lemma lex_digits cfg c s : is_digit c = true -> all_digits s = true -> lexc cfg (c :: s) = Some [TNum (c :: s)].
Proof.
  intros Hc Hs. unfold lexc. rewrite run_cons. cbn [step]. rewrite start_digit by assumption.
  apply flush_digits, Hs.
Qed.

(* C05 (integers): a non-negative integer is one numeric token spelling it in decimal *)
Theorem nat_roundtrip cfg n : lexc cfg (N_to_str n) = Some [TNum (N_to_str n)] /\ read_dec (N_to_str n) = Some n.
Proof.
  destruct (N_to_str_cons n) as (c & r & E & Hc & Hr). split; [|apply read_dec_N_to_str].
  rewrite E. apply lex_digits; assumption.
Qed.

Lemma step_op_digit cfg acc out c : is_digit c = true -> step cfg (MOp acc, out) c = (MNum NInt [c], TOp acc :: out).
Proof.
  intro Hc. cbn [step].
  assert (Ho : is_opchar c = false) by (unfold is_opchar, is_digit in *; cbn [existsb]; lia).
  rewrite Ho. apply start_digit, Hc.
Qed.

Theorem neg_roundtrip cfg p :
  lexc cfg (Z_to_str (Zneg p)) = Some [TOp [45]; TNum (N_to_str (Npos p))].
Proof.
  cbn [Z_to_str]. destruct (N_to_str_cons (Npos p)) as (c & r & E & Hc & Hr). rewrite E.
  (* every test of start that asks cfg is guarded by a character test that the minus sign fails *)
  unfold lexc. rewrite !run_cons. change (step cfg (MNorm, []) 45) with (MOp [45], @nil ltok).
  rewrite step_op_digit by assumption. apply flush_digits, Hr.
Qed.

(* lexer states in which the next character starts a fresh token (after flushing the pending one) *)
Definition pending (st : mode * list ltok) : option (list ltok) :=
  let '(m, out) := st in
  match m with
  | MNorm => Some out
  | MWord acc => Some (TWord (rev acc) :: out)
  | MNum NInt acc | MNum NFrac acc | MNum NExp acc => Some (TNum (rev acc) :: out)
  | MOp acc => Some (TOp acc :: out)
  | _ => None
  end.

(* reference decoder of a JSON string body (RFC 8259 escapes) as a fold over characters *)
Inductive jmode := JN | JEsc | JU (k : nat) (acc : N) | JErr.
Definition hexval (c : char) : option N :=
  if is_digit c then Some (c - 48) else if (97 <=? c) && (c <=? 102) then Some (c - 87) else None.
Definition jstep (st : jmode * str) (c : char) : jmode * str :=
  let '(m, out) := st in
  match m with
  | JErr => (JErr, out)
  | JN => if c =? 92 then (JEsc, out) else if (c =? 34) || (c <? 32) then (JErr, out) else (JN, c :: out)
  | JEsc =>
      if c =? 34 then (JN, 34 :: out) else if c =? 92 then (JN, 92 :: out) else if c =? 47 then (JN, 47 :: out)
      else if c =? 110 then (JN, 10 :: out) else if c =? 114 then (JN, 13 :: out) else if c =? 116 then (JN, 9 :: out)
      else if c =? 98 then (JN, 8 :: out) else if c =? 102 then (JN, 12 :: out)
      else if c =? 117 then (JU 4 0, out) else (JErr, out)
  | JU k acc =>
      match hexval c with
      | Some v => match k with
                  | 1%nat => (JN, acc * 16 + v :: out)
                  | S k' => (JU k' (acc * 16 + v), out)
                  | O => (JErr, out)
                  end
      | None => (JErr, out)
      end
  end.
Definition jrun (st : jmode * str) (s : str) : jmode * str := fold_left jstep s st.
Definition json_body_decode (s : str) : option str :=
  match jrun (JN, []) s with (JN, out) => Some (rev out) | _ => None end.

Lemma hexdig_val n : n < 16 -> hexval (hexdig n) = Some n.
Proof.
  intro H. unfold hexdig, hexval, is_digit. destruct (N.ltb_spec n 10).
  - assert (E : (48 <=? 48 + n) && (48 + n <=? 57) = true) by lia. rewrite E. f_equal. lia.
  - assert (E : (48 <=? 87 + n) && (87 + n <=? 57) = false) by lia. rewrite E.
    assert (E2 : (97 <=? 87 + n) && (87 + n <=? 102) = true) by lia. rewrite E2. f_equal. lia.
Qed.

Lemma jrun_esc_char c out : jrun (JN, out) (json_esc_char c) = (JN, c :: out).
Proof.
  unfold json_esc_char.
  destruct (N.eqb_spec c 34) as [->|H34]; [reflexivity|].
  destruct (N.eqb_spec c 92) as [->|H92]; [reflexivity|].
  destruct (N.eqb_spec c 10) as [->|H10]; [reflexivity|].
  destruct (N.eqb_spec c 13) as [->|H13]; [reflexivity|].
  destruct (N.eqb_spec c 9) as [->|H9]; [reflexivity|].
  destruct (N.eqb_spec c 8) as [->|H8]; [reflexivity|].
  destruct (N.eqb_spec c 12) as [->|H12]; [reflexivity|].
  unfold jrun. destruct (N.ltb_spec c 32) as [Hlt|Hge].
  - (* \u00XY *)
    assert (Hd : c / 16 < 16) by (apply N.div_lt_upper_bound; lia).
    assert (Hm : c mod 16 < 16) by (apply N.mod_lt; lia).
    assert (H48 : hexval 48 = Some 0) by reflexivity.
    cbn -[hexdig N.div N.modulo N.mul N.add hexval]. rewrite H48.
    cbn -[hexdig N.div N.modulo N.mul N.add hexval]. rewrite H48.
    cbn -[hexdig N.div N.modulo N.mul N.add hexval]. rewrite (hexdig_val _ Hd).
    cbn -[hexdig N.div N.modulo N.mul N.add hexval]. rewrite (hexdig_val _ Hm).
    f_equal. f_equal. pose proof (N.div_mod c 16). lia.
  - cbn [fold_left jstep]. rewrite (proj2 (N.eqb_neq c 92) H92), (proj2 (N.eqb_neq c 34) H34), (proj2 (N.ltb_ge c 32) Hge).
    reflexivity.
Qed.

Lemma jrun_esc s out : jrun (JN, out) (flat (map json_esc_char s)) = (JN, rev s ++ out).
Proof.
  revert out. apply (fold_left_decode jstep json_esc_char (fun s => flat (map json_esc_char s)) (fun out => (JN, out)));
    [reflexivity|reflexivity|].
  intros c _ out. apply jrun_esc_char.
Qed.

(* every string: the body that json.dumps(ensure_ascii=False) writes decodes to the string *)
Theorem json_string_roundtrip s :
  exists body, json_str s = [34] ++ body ++ [34] /\ json_body_decode body = Some s.
Proof.
  exists (flat (map json_esc_char s)). split; [reflexivity|].
  unfold json_body_decode. rewrite jrun_esc. rewrite app_nil_r, rev_involutive. reflexivity.
Qed.
