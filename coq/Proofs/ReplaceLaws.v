(* Proofs/ReplaceLaws.v — laws of the replace_table specification (Ref/Replace.v), for ALL terms and statements of the object language:
   two mutual inductions over its 17 sorts (rep_nothing_else, rep_occ); rep_every_reference and rep_idempotent are their corollaries. *)
From PT Require Import Base.Str Model.Syntax Ref.Replace.
Open Scope N_scope.

Section Laws.
Variables (old new : tref).
Notation rep' := (rep old new).
Notation occ' := (occ old).

(* where a table reference stands: TField, TStar (rot) and TTable *)
Lemma rot_same tb : occ_ot old tb = false -> rot old new tb = tb.
Proof. destruct tb as [r|]; [|reflexivity]. unfold occ_ot, occ_t, rot, rt. intros ->. reflexivity. Qed.

Lemma rt_occ r : occ_t old (rt old new r) = occ_t old r && tref_eqb new old.
Proof. unfold occ_t, rt. destruct (tref_eqb r old) eqn:E; [reflexivity | exact E]. Qed.

Lemma rot_occ tb : occ_ot old (rot old new tb) = occ_ot old tb && tref_eqb new old.
Proof. destruct tb; [apply rt_occ | reflexivity]. Qed.

Lemma orb_andb a b a' b' c : a' = a && c -> b' = b && c -> a' || b' = (a || b) && c.
Proof. intros -> ->. symmetry. apply Bool.andb_orb_distrib_l. Qed.

(* term_mut at a law of the pairs (rep_s, occ_s), s the sorts rep maps (not cols and qflags: rep does not enter the DDL builders) *)
Definition by_sorts (law : forall A, (A -> A) -> (A -> bool) -> A -> Prop) :=
  term_mut (law _ rep' occ') (law _ (rep_o old new) (occ_o old)) (law _ (rep_ts old new) (occ_ts old)) (law _ (rep_cases old new) (occ_cases old))
    (law _ (rep_obys old new) (occ_obys old)) (law _ (rep_gbys old new) (occ_gbys old)) (law _ (rep_over old new) (occ_over old))
    (law _ (rep_rows old new) (occ_rows old)) (law _ (rep_upds old new) (occ_upds old)) (law _ (rep_cupds old new) (occ_cupds old))
    (law _ (rep_joinc old new) (occ_joinc old)) (law _ (rep_joins old new) (occ_joins old)) (law _ (rep_sops old new) (occ_sops old))
    (law _ (rep_ctes old new) (occ_ctes old)) (fun _ => True) (law _ (rep_q old new) (occ_q old)) (fun _ => True).

(* The cases of by_sorts with rep and occ taken one step through the constructor.  The two are mutual fixpoints that were closed over old and
   new with the section of Ref/Replace.v, so cbn cannot name their calls on other sorts and leaves anonymous `fix` blocks: these are folded
   back by name.  Both are done once, on the induction principle, and not in each of its cases. *)
Ltac induction_by_sorts law :=
  let M := fresh in
  pose proof (by_sorts law) as M; cbn in M;
  fold (rep old new) (occ old) (rep_o old new) (occ_o old) (rep_ts old new) (occ_ts old) (rep_cases old new) (occ_cases old)
    (rep_obys old new) (occ_obys old) (rep_gbys old new) (occ_gbys old) (rep_over old new) (occ_over old) (rep_rows old new) (occ_rows old)
    (rep_upds old new) (occ_upds old) (rep_cupds old new) (occ_cupds old) (rep_joinc old new) (occ_joinc old) (rep_joins old new) (occ_joins old)
    (rep_sops old new) (occ_sops old) (rep_ctes old new) (occ_ctes old) (rep_q old new) (occ_q old) in M;
  apply M; clear M; intros; try exact I.

Theorem rep_nothing_else : forall t, occ' t = false -> rep' t = t.
Proof.
  (* in each case: split the hypothesis over the operands, rewrite with the induction hypotheses it discharges *)
  induction_by_sorts (fun A (r : A -> A) (o : A -> bool) x => o x = false -> r x = x);
    repeat match goal with H : _ || _ = false |- _ => apply Bool.orb_false_elim in H as [? ?] end;
    repeat match goal with IH : ?h -> _ = _, H : ?h |- _ => rewrite (IH H); clear IH end;
    try reflexivity.
  - (* TField *) rewrite rot_same by assumption. reflexivity.
  - (* TStar *) rewrite rot_same by assumption. reflexivity.
  - (* TTable *) unfold occ_t in *. destruct (tref_eqb r old); [discriminate | reflexivity].
Qed.

Theorem rep_occ : forall t, occ' (rep' t) = occ' t && tref_eqb new old.
Proof.
  induction_by_sorts (fun A (r : A -> A) (o : A -> bool) x => o (r x) = o x && tref_eqb new old);
    repeat apply orb_andb; auto using rot_occ.
  (* TTable *) rewrite <- rt_occ. unfold rt. destruct (tref_eqb r old); reflexivity.
Qed.

Theorem rep_every_reference : forall t, tref_eqb new old = false -> occ' (rep' t) = false.
Proof. intros t Hn. rewrite rep_occ, Hn. apply Bool.andb_false_r. Qed.

Theorem rep_idempotent : forall t, tref_eqb new old = false -> rep' (rep' t) = rep' t.
Proof. intros t Hn. apply rep_nothing_else. apply rep_every_reference. exact Hn. Qed.

Theorem rep_q_laws : forall q, (occ_q old q = false -> rep_q old new q = q) /\ (tref_eqb new old = false -> occ_q old (rep_q old new q) = false).
Proof.
  intro q. split.
  - intro H. apply (rep_nothing_else (TQuery q)) in H. change (TQuery (rep_q old new q) = TQuery q) in H. congruence.
  - exact (rep_every_reference (TQuery q)).
Qed.
End Laws.
