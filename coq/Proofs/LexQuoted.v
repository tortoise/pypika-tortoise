(* Proofs/LexQuoted.v — the quoted-token lemmas: a quote-doubled (and, for MySQL strings,
   backslash-doubled) text between two quote characters is read by the reference lexer as exactly
   one token whose decoded content is the original string — for ALL strings, after any token
   boundary and before anything but a further quote.  Then identifiers and string literals as the
   library quotes them (Model.Value.fquote). *)
From PT Require Import Base.Str Model.Types Model.Value Ref.Lexer Proofs.LexLit.
Open Scope N_scope.

(* a backslash is an escape only inside a string token of a dialect with lc_bs: then s must hold none *)
Definition no_bs_issue (cfg : lexcfg) (k : qkind) (s : str) : Prop :=
  lc_bs cfg = false \/ k = KId \/ forallb (fun c => negb (c =? 92)) s = true.

Lemma dbl_bs_no_issue_id cfg s : no_bs_issue cfg KId s.
Proof. right; left; reflexivity. Qed.

(* one character that is not a backslash escape in this kind of token *)
Lemma run_dbl_char cfg q k c acc out :
  (c =? 92) && lc_bs cfg && match k with KStr => true | KId => false end = false ->
  run cfg (MQ q k acc, out) (dbl q [c]) = (MQ q k (c :: acc), out).
Proof.
  intro Hbs. cbn [dbl]. destruct (N.eqb_spec c q) as [->|Hc]; cbn [run fold_left step].
  - rewrite N.eqb_refl. cbn [step]. rewrite N.eqb_refl. reflexivity.
  - rewrite (proj2 (N.eqb_neq c q) Hc), Hbs. reflexivity.
Qed.

Lemma run_dbl_body cfg q k s acc out :
  no_bs_issue cfg k s ->
  run cfg (MQ q k acc, out) (dbl q s) = (MQ q k (rev s ++ acc), out).
Proof.
  intro Hb. revert acc.
  apply (fold_left_decode (step cfg) (fun c => dbl q [c]) (dbl q) (fun acc => (MQ q k acc, out))).
  - reflexivity.
  - intros c s'. exact (dbl_app q [c] s').
  - intros c Hc acc. apply run_dbl_char. destruct Hb as [H|[H|H]].
    + rewrite H, andb_false_r. reflexivity.
    + rewrite H, andb_false_r. reflexivity.
    + rewrite (proj1 (negb_true_iff _) (proj1 (forallb_forall _ _) H c Hc)). reflexivity.
Qed.

(* MySQL strings: backslashes doubled, then quotes doubled; a doubled backslash is read as one *)
Lemma run_dbl_bs_char cfg q c acc out :
  lc_bs cfg = true -> q <> 92 ->
  run cfg (MQ q KStr acc, out) (dbl q (dbl 92 [c])) = (MQ q KStr (c :: acc), out).
Proof.
  intros Hbs Hq. cbn [dbl]. destruct (N.eqb_spec c 92) as [->|Hc].
  - assert (Hq' : (92 =? q) = false) by (apply N.eqb_neq; congruence).
    cbn [dbl]. rewrite Hq'. cbn [run fold_left step]. rewrite Hq', Hbs. reflexivity.
  - apply run_dbl_char. rewrite (proj2 (N.eqb_neq c 92) Hc). reflexivity.
Qed.

Lemma run_dbl_bs_body cfg q s acc out :
  lc_bs cfg = true -> q <> 92 ->
  run cfg (MQ q KStr acc, out) (dbl q (dbl 92 s)) = (MQ q KStr (rev s ++ acc), out).
Proof.
  intros Hbs Hq. revert acc.
  apply (fold_left_decode (step cfg) (fun c => dbl q (dbl 92 [c])) (fun s => dbl q (dbl 92 s)) (fun acc => (MQ q KStr acc, out))).
  - reflexivity.
  - intros c s'. rewrite <- dbl_app, <- (dbl_app 92 [c]). reflexivity.
  - intros c _ acc. apply run_dbl_bs_char; assumption.
Qed.

Definition opens (cfg : lexcfg) (q : char) : option qkind :=
  if q =? 39 then Some KStr
  else if q =? 34 then Some (if lc_dq_string cfg then KStr else KId)
  else if q =? 96 then (if lc_backtick cfg then Some KId else None)
  else None.

Lemma opens_cases cfg q k : opens cfg q = Some k -> q = 39 \/ q = 34 \/ q = 96.
Proof.
  unfold opens. destruct (N.eqb_spec q 39); [tauto|]. destruct (N.eqb_spec q 34); [tauto|].
  destruct (N.eqb_spec q 96); [tauto|discriminate].
Qed.

Lemma start_quote cfg out q k : opens cfg q = Some k -> start cfg out q = (MQ q k [], out).
Proof.
  intro H. destruct (opens_cases _ _ _ H) as [->|[->| ->]]; cbn in H |- *.
  - inversion H. reflexivity.
  - inversion H. reflexivity.
  - destruct (lc_backtick cfg); inversion H. reflexivity.
Qed.

(* no quote character continues a pending word, number or operator *)
Lemma step_opens_quote cfg st q k out' :
  pending st = Some out' -> opens cfg q = Some k -> step cfg st q = (MQ q k [], out').
Proof.
  intros Hp Ho. rewrite <- (start_quote cfg out' q k Ho).
  destruct st as [m out]. destruct m as [| |[]| | | | | | | | | |]; try discriminate Hp; injection Hp as <-;
    destruct (opens_cases _ _ _ Ho) as [->|[->| ->]]; reflexivity.
Qed.

(* from a token boundary through the closing quote, for any way of writing s between the quotes that the
   lexer reads back as s; what follows decides whether the closing quote was the first half of a doubled one *)
Theorem quoted_token cfg st out q k body s :
  pending st = Some out -> opens cfg q = Some k ->
  (forall acc, run cfg (MQ q k acc, out) body = (MQ q k (rev s ++ acc), out)) ->
  run cfg st (q :: body ++ [q]) = (MQSeen q k (rev s), out).
Proof.
  intros Hp Ho Hbody. rewrite run_cons, (step_opens_quote _ _ _ _ _ Hp Ho), run_app, Hbody, app_nil_r.
  cbn [run fold_left step]. rewrite N.eqb_refl. reflexivity.
Qed.

Lemma fquote_single q s : fquote [q] s = q :: dbl q s ++ [q].
Proof. reflexivity. Qed.

(* LexLit.pending st: between tokens, or in a word, a complete number or an operator *)
Theorem quoted_in_context cfg st out' q k s c rest :
  pending st = Some out' -> opens cfg q = Some k -> no_bs_issue cfg k s -> c <> q ->
  run cfg st (fquote [q] s ++ c :: rest) = run cfg (start cfg (mk_q k s :: out') c) rest.
Proof.
  intros Hp Ho Hb Hc.
  rewrite fquote_single, run_app, (quoted_token _ _ _ _ _ _ s Hp Ho) by (intro; apply run_dbl_body, Hb).
  rewrite run_cons. cbn [step]. rewrite (proj2 (N.eqb_neq c q) Hc), rev_involutive. reflexivity.
Qed.

Theorem quoted_at_end cfg st out' q k s :
  pending st = Some out' -> opens cfg q = Some k -> no_bs_issue cfg k s ->
  flush (run cfg st (fquote [q] s)) = Some (rev (mk_q k s :: out')).
Proof.
  intros Hp Ho Hb.
  rewrite fquote_single, (quoted_token _ _ _ _ _ _ s Hp Ho) by (intro; apply run_dbl_body, Hb).
  cbn [flush]. rewrite rev_involutive. reflexivity.
Qed.

Theorem lex_quoted cfg q k s :
  opens cfg q = Some k -> no_bs_issue cfg k s ->
  lexc cfg (q :: dbl q s ++ [q]) = Some [mk_q k s].
Proof. intros Ho Hb. exact (quoted_at_end cfg (MNorm, []) [] q k s eq_refl Ho Hb). Qed.

Lemma run_quoted_then cfg q k s out c rest :
  opens cfg q = Some k -> no_bs_issue cfg k s -> c <> q ->
  run cfg (MNorm, out) (q :: dbl q s ++ q :: c :: rest) = run cfg (start cfg (mk_q k s :: out) c) rest.
Proof.
  intros Ho Hb Hc. rewrite <- (quoted_in_context cfg (MNorm, out) out q k s c rest eq_refl Ho Hb Hc).
  rewrite fquote_single. cbn [app]. rewrite <- app_assoc. reflexivity.
Qed.

Theorem lex_quoted_mysql cfg q s :
  opens cfg q = Some KStr -> lc_bs cfg = true ->
  lexc cfg (q :: dbl q (dbl 92 s) ++ [q]) = Some [TStr s].
Proof.
  intros Ho Hbs. assert (Hq : q <> 92) by (destruct (opens_cases _ _ _ Ho) as [->|[->| ->]]; discriminate).
  unfold lexc. rewrite (quoted_token _ (MNorm, []) [] _ _ _ s eq_refl Ho) by (intro; apply run_dbl_bs_body; assumption).
  cbn [flush]. rewrite rev_involutive. reflexivity.
Qed.

(* without doubling, a name that contains the quote character is NOT read back as one token:
   this is what utils.format_quotes did for identifiers before it was repaired *)
Lemma lex_undoubled_refuted :
  lexc (lexcfg_of SQLITE) (34 :: L "we" ++ [34] ++ L "ird" ++ [34]) <> Some [TQId (L "we" ++ [34] ++ L "ird")].
Proof. vm_compute. discriminate. Qed.

(* C07: identifiers as format_quotes writes them *)
Theorem ident_roundtrip cfg q name :
  opens cfg q = Some KId -> lexc cfg (fquote [q] name) = Some [TQId name].
Proof. intro Ho. exact (lex_quoted cfg q KId name Ho (dbl_bs_no_issue_id cfg name)). Qed.

(* C05: strings in a dialect without backslash escapes *)
Theorem string_roundtrip cfg s :
  lc_bs cfg = false -> lexc cfg (fquote [39] s) = Some [TStr s].
Proof. intro Hb. exact (lex_quoted cfg 39 KStr s eq_refl (or_introl Hb)). Qed.

(* both: the value path doubles backslashes exactly where the dialect's lexer takes them for escapes *)
Theorem string_roundtrip_bsd cfg s : lexc cfg (fquote [39] (bsd (lc_bs cfg) s)) = Some [TStr s].
Proof.
  destruct (lc_bs cfg) eqn:Hb; [exact (lex_quoted_mysql cfg 39 s eq_refl Hb) | exact (string_roundtrip cfg s Hb)].
Qed.
