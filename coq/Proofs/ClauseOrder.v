(* Proofs/ClauseOrder.v — every clause of a statement is empty or introduced by its own keyword, and the clauses after the head of EVERY SELECT /
   DELETE / INSERT .. SELECT statement of the model come in the one canonical order, each at most once (tail_shape); a plain SELECT is WITH, SELECT
   and that tail (main_plain_select).  For all statements, contexts, parameterizer states and any renderers of the operands.  The theorems for
   whole statements of each kind are proved from these in Props/C13.v. *)
From PT Require Import Base.Str Model.Types Model.Syntax Model.Render Proofs.Post Proofs.QueryEq.
Open Scope N_scope.

Definition kw_or_empty (k s : str) : Prop := s = [] \/ exists r, s = k ++ r.

(* the forms a clause takes: nothing; a keyword and a text; a keyword and a text, or nothing, as an optional part decides *)
Lemma kw_empty k p : post (fun s _ => kw_or_empty k s) (Ok ([], p)).
Proof. apply post_ret. left. reflexivity. Qed.
Lemma kw_text {A} k (f : A -> str) (m : res (A * pz)) : post (fun s _ => exists r, s = k ++ r) (do (x, p) <- m; Ok (k ++ f x, p)).
Proof. eapply post_bind; [apply post_true|]. intros x p _. apply post_ret. eexists. reflexivity. Qed.
Lemma kw_clause {A} k (f : A -> str) (m : res (A * pz)) : post (fun s _ => kw_or_empty k s) (do (x, p) <- m; Ok (k ++ f x, p)).
Proof. intros s p E. right. exact (kw_text k f m s p E). Qed.
Lemma kw_option k (m : res (option str * pz)) :
  post (fun s _ => kw_or_empty k s) (do (o, p) <- m; Ok (match o with Some x => k ++ x | None => [] end, p)).
Proof. eapply post_bind; [apply post_true|]. intros [x|] p _; apply post_ret; [right; eexists|left]; reflexivity. Qed.

Section Shapes.
Variables (R : rens) (q : query) (c : ctx).

Lemma with_sql_shape p s p' : with_sql R q c p = Ok (s, p') -> kw_or_empty (L "WITH ") s.
Proof. revert s p'. unfold with_sql. destruct (q_withs q); [apply kw_empty | apply kw_clause]. Qed.
Lemma from_sql_shape p s p' : from_sql R q c p = Ok (s, p') -> kw_or_empty (L " FROM ") s.
Proof. revert s p'. unfold from_sql, from_list_sql. destruct (q_from q); [apply kw_empty | apply kw_clause]. Qed.
Lemma joins_sql_shape p s p' : joins_sql R q c p = Ok (s, p') -> kw_or_empty [32] s.
Proof. revert s p'. unfold joins_sql. destruct (q_joins_ q); [apply kw_empty | apply kw_clause]. Qed.
Lemma where_sql_shape p s p' : where_sql R q c p = Ok (s, p') -> kw_or_empty (L " WHERE ") s.
Proof. revert s p'. apply kw_option. Qed.
Lemma prewhere_sql_shape p s p' : prewhere_sql R q c p = Ok (s, p') -> kw_or_empty (L " PREWHERE ") s.
Proof. revert s p'. apply kw_option. Qed.
Lemma orderby_sql_shape p s p' : orderby_sql R q c p = Ok (s, p') -> kw_or_empty (L " ORDER BY ") s.
Proof. revert s p'. unfold orderby_sql, orderby_sql_c. destruct (q_orderbys q); [apply kw_empty | apply kw_clause]. Qed.
Lemma select_sql_shape p s p' : select_sql R q c p = Ok (s, p') -> exists r, s = L "SELECT " ++ r.
Proof.
  revert s p'. unfold select_sql. eapply post_bind; [apply post_true|]. intros sd p1 _. apply kw_text.
Qed.

Lemma set_sql_shape p s p' : set_sql R q c p = Ok (s, p') -> exists r, s = L " SET " ++ r.
Proof. revert s p'. apply kw_text. Qed.

(* everything after the head: FROM, index hints, joins, PREWHERE, WHERE, GROUP BY, HAVING, ORDER BY, row limit, FOR UPDATE - in this order *)
Theorem tail_shape : forall qs p s p',
  q_on_conflict q = false ->
  tail_with R q c false false qs p = Ok (s, p') ->
  exists sf sfi sui sj spw sw sg sh so sp pa pb,
    s = qs ++ sf ++ sfi ++ sui ++ sj ++ spw ++ sw ++ sg ++ sh ++ so ++ sp ++ for_update_sql q c /\
    kw_or_empty (L " FROM ") sf /\ kw_or_empty (L " FORCE INDEX (") sfi /\ kw_or_empty (L " USE INDEX (") sui /\ kw_or_empty [32] sj /\
    kw_or_empty (L " PREWHERE ") spw /\ kw_or_empty (L " WHERE ") sw /\ kw_or_empty (L " GROUP BY ") sg /\ kw_or_empty (L " HAVING ") sh /\
    kw_or_empty (L " ORDER BY ") so /\ pagination R q c pa = Ok (sp, pb).
Proof.
  intros qs p s p' Hoc. revert s p'. unfold tail_with. rewrite Hoc.
  eapply post_bind; [exact (from_sql_shape p)|]. intros sf p1 Hsf.
  eapply post_bind; [destruct (q_force_idx q); [apply kw_empty | apply kw_clause]|]. intros sfi p2 Hsfi.
  eapply post_bind; [destruct (q_use_idx q); [apply kw_empty | apply kw_clause]|]. intros sui p3 Hsui.
  eapply post_bind; [exact (joins_sql_shape p3)|]. intros sj p4 Hsj.
  eapply post_bind; [exact (prewhere_sql_shape p4)|]. intros spw p5 Hspw.
  eapply post_bind; [exact (where_sql_shape p5)|]. intros sw p6 Hsw.
  eapply post_bind; [destruct (q_groupbys q); [apply kw_empty | apply kw_clause]|]. intros sg p7 Hsg.
  eapply post_bind; [apply kw_option|]. intros sh p8 Hsh.
  eapply post_bind; [exact (orderby_sql_shape p8)|]. intros so p9 Hso.
  eapply post_bind; [apply post_self|]. intros sp p10 Hsp.
  apply post_ret. exists sf, sfi, sui, sj, spw, sw, sg, sh, so, sp, p9, p10. repeat split; assumption.
Qed.

End Shapes.

Definition plain_select (q : query) : bool :=
  negb (has_upd q) && negb (q_delete_from q) && negb (has_ins q) && negb (q_on_conflict q) && negb (is_nonempty_terms (q_returns q)) && complete q.

Lemma plain_select_inv q : plain_select q = true ->
  has_upd q = false /\ q_delete_from q = false /\ has_ins q = false /\ q_on_conflict q = false /\ q_returns q = TNil /\ complete q = true.
Proof.
  unfold plain_select. rewrite !andb_true_iff, !negb_true_iff. destruct (q_returns q); [tauto|]. cbn. intuition discriminate.
Qed.

Lemma generic_plain_select R q c p : plain_select q = true ->
  generic_with R q c false false p =
    do (sw, p1) <- with_sql R q c p; do (ssel, p2) <- select_sql R q c p1; tail_with R q c false false (sw ++ ssel ++ []) p2.   (* [] : no INTO *)
Proof.
  intro H. destruct (plain_select_inv q H) as (Hu & Hd & Hi & _).
  unfold generic_with. rewrite Hu, Hd, Hi, andb_false_r. reflexivity.
Qed.

Lemma main_plain_select R q c0 c p : plain_select q = true ->
  main_with R q c0 c false false p =
    do (sw, p1) <- with_sql R q c p; do (ssel, p2) <- select_sql R q c p1; tail_with R q c false false (sw ++ ssel ++ []) p2.
Proof.
  intro H. transitivity (generic_with R q c false false p); [|exact (generic_plain_select R q c p H)].
  destruct (plain_select_inv q H) as (Hu & _ & _ & _ & Hr & _).
  unfold main_with, returning. rewrite Hu, Hr. cbn [is_nonempty_terms].
  (* MySQL and PostgreSQL post-process the result of the generic statement: in vain for a plain SELECT *)
  destruct (q_cls q); try reflexivity; (destruct (generic_with R q c false false p) as [[s p1]|]; [|reflexivity]);
    [apply list_case_same | reflexivity].
Qed.

Definition insert_kw (k : str) : Prop := k = L "REPLACE INTO " \/ k = L "INSERT IGNORE INTO " \/ k = L "INSERT INTO ".
