(* Proofs/PaginationAll.v — the row-limiting clause of EVERY statement of the model (any clauses, any limit / offset terms, any
   context and parameterizer state) is the reference clause text (Ref.RowLimit.ref_pagination) applied to what its limit and offset
   terms render to, the two rendered in the order of their slots. *)
From PT Require Import Base.Str Model.Types Model.Syntax Model.Render Proofs.Post Proofs.QueryEq Ref.RowLimit.
Open Scope N_scope.

Definition offset_slot_first (b : bcls) : bool := match b with BMSSQL | BOracle => true | _ => false end.
Definition has_order (q : query) : bool := match q_orderbys q with ONil => false | _ => true end.

Lemma pagination_is_reference : forall (q : query) (c : ctx) (p : pz),
  pagination the_rens q c p =
    if offset_slot_first (q_cls q) then
      do (oo, p1) <- render_o c p (q_off q); do (ol, p2) <- render_o c p1 (q_lim q);
      Ok (ref_pagination (q_cls q) ol oo (has_order q), p2)
    else
      do (ol, p1) <- render_o c p (q_lim q); do (oo, p2) <- render_o c p1 (q_off q);
      Ok (ref_pagination (q_cls q) ol oo (has_order q), p2).
Proof.
  intros q c p.
  unfold pagination, offset_kw_sql, limit_kw_sql, limit_kw_sql_c, has_order, ref_pagination, style_of, offset_slot_first.
  cbn [r_o the_rens].
  destruct (q_cls q), (q_lim q) as [|tl], (q_off q) as [|to]; cbn [render_o is_some_t orb];
    repeat match goal with
    | |- context [render ?c ?p ?t] => destruct (render c p t) as [[? ?]|?]; cbn [render_o]
    end;
    rewrite ?app_nil_r, <- ?app_assoc; try reflexivity; destruct (q_orderbys q); reflexivity.   (* only SQL Server reads the ORDER BY *)
Qed.

Corollary pagination_text q c p s p' : pagination the_rens q c p = Ok (s, p') -> exists ol oo, s = ref_pagination (q_cls q) ol oo (has_order q).
Proof.
  revert s p'. rewrite pagination_is_reference.
  destruct (offset_slot_first (q_cls q)); (eapply post_bind; [apply post_true|]; intros ? ? _); (eapply post_bind; [apply post_true|]; intros ? ? _);
    apply post_ret; eauto.
Qed.

(* set operations: the words in which C09_every_set_operation (Props/C09.v) says that the clause of the whole operation is the reference clause too *)
Definition setop_style_cls (d : dial) : bcls := match d with MSSQL => BMSSQL | ORACLE => BOracle | _ => BGeneric end.
Definition nonempty_strs (l : list str) : bool := match l with [] => false | _ => true end.
Definition setop_orderby_text (sob : list str) : str := match sob with [] => [] | _ => L " ORDER BY " ++ join [44] sob end.

(* the set operation's code branches on the dialect, the reference on the class that prints the dialect's clause: three cases *)
Lemma setop_style_case {T} (d : dial) (A B C : T) :
  match d with MSSQL => A | ORACLE => B | _ => C end = match setop_style_cls d with BMSSQL => A | BOracle => B | _ => C end.
Proof. destruct d; reflexivity. Qed.
Lemma setop_style_ind (P : bcls -> Prop) d : P BGeneric -> P BMSSQL -> P BOracle -> P (setop_style_cls d).
Proof. destruct d; auto. Qed.
