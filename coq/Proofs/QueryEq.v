(* Proofs/QueryEq.v — equations about Model.Render.render_query and its clause definitions (Section Q of Model/Render.v):
   the Fixpoint is q_render applied to the bundle of recursive renderers; the flags of the embedding position
   reach the text only through one pair of parentheses and one alias around the statement. *)
From PT Require Import Base.Str Model.Types Model.Syntax Model.Render Proofs.Post.
Open Scope N_scope.

Definition the_rens : rens :=
  MkRens render_o render_ts render_obys render_rows render_upds render_cupds render_joins render_ctes render_gbys.

Lemma render_query_eq : forall c0 p q, render_query c0 p q = q_render the_rens q c0 p.
Proof. intros c0 p q. destruct q; reflexivity. Qed.

Lemma render_tquery_eq c p q : render c p (TQuery q) = render_query c p q.
Proof. reflexivity. Qed.

Definition wrap (c : ctx) (q : query) (sq wa : bool) (s : str) : str := alias_if wa c (paren_if sq s) (q_alias q).

Lemma wrap_id c q s : wrap c q false false s = s.
Proof. reflexivity. Qed.

Definition then_wrap (c : ctx) (q : query) (sq wa : bool) (r : res (str * pz)) : res (str * pz) :=
  match r with Ok (s, p') => Ok (wrap c q sq wa s, p') | Exn e => Exn e end.

Lemma tail_wrap R q c sq wa qs p : q_on_conflict q = false ->
  tail_with R q c sq wa qs p = then_wrap c q sq wa (tail_with R q c false false qs p).
Proof.
  intro H. unfold tail_with, then_wrap. rewrite H. cbv zeta. repeat (apply bind_map; intros). reflexivity.
Qed.

(* a statement that can stand in an embedding position: a SELECT, DELETE or INSERT .. SELECT without upsert part - with or without RETURNING *)
Definition selectable (q : query) : bool :=
  negb (has_upd q) && negb (q_on_conflict q) && negb (has_ins q && has_vals q).

Lemma selectable_inv q : selectable q = true -> has_upd q = false /\ q_on_conflict q = false /\ has_ins q && has_vals q = false.
Proof. unfold selectable. rewrite !andb_true_iff, !negb_true_iff. tauto. Qed.

Lemma generic_wrap R q c sq wa p : selectable q = true ->
  generic_with R q c sq wa p = then_wrap c q sq wa (generic_with R q c false false p).
Proof.
  intro H. destruct (selectable_inv q H) as (Hupd & Hoc & Hiv).
  unfold generic_with. rewrite Hupd.
  destruct (q_delete_from q); [apply tail_wrap; exact Hoc|].
  destruct (negb (q_select_into q) && has_ins q) eqn:E.
  - apply andb_prop in E. destruct E as [_ Hins]. rewrite Hins in Hiv. cbn [andb] in Hiv. rewrite Hiv.
    (* INSERT .. SELECT: WITH, the table, the column list and SELECT are rendered before the tail *)
    unfold then_wrap. do 4 (apply bind_map; intros). apply tail_wrap. exact Hoc.
  - (* SELECT [INTO]: WITH, SELECT, INTO *)
    unfold then_wrap. do 3 (apply bind_map; intros). apply tail_wrap. exact Hoc.
Qed.

Lemma main_wrap R q c0 c0' c sq wa p : selectable q = true ->
  main_with R q c0 c sq wa p = then_wrap c q sq wa (main_with R q c0' c false false p).
Proof.
  intro Hs. destruct (selectable_inv q Hs) as (Hupd & _ & _).
  unfold main_with, returning. rewrite Hupd.
  (* with RETURNING (PostgreSQL) both sides render the statement un-wrapped and wrap after the clause; otherwise generic_wrap *)
  destruct (q_cls q), (q_returns q); cbn [is_nonempty_terms]; rewrite ?(generic_wrap R q c sq wa p Hs);
    destruct (generic_with R q c false false p) as [[s p']|e]; cbn [then_wrap]; rewrite ?list_case_same; try reflexivity.
  apply bind_map. reflexivity.
Qed.

(* the context of a stand-alone rendering under the same dialect conventions: the four flags of an embedding position off *)
Definition standalone (c : ctx) : ctx :=
  set_with_namespace false (set_subquery false (set_with_alias false (set_subcriterion false c))).

(* q_render's guard: the builder has a statement to render *)
Definition complete (q : query) : bool :=
  negb (negb (has_sel q || has_ins q || q_delete_from q || has_upd q)
        || (has_ins q && negb (has_sel q || has_vals q))
        || (has_upd q && negb (has_updates q))).

Definition embed (c0 : ctx) (q : query) (s : str) : str :=
  wrap (clause_ctx q (adjust_ctx q c0)) q (subquery c0) (with_alias c0) s.

Lemma clause_ctx_conventions_only : forall (q : query) (c0 c0' : ctx),
  quote_char c0 = quote_char c0' -> secondary_quote_char c0 = secondary_quote_char c0' -> alias_quote_char c0 = alias_quote_char c0' ->
  dialect c0 = dialect c0' -> as_keyword c0 = as_keyword c0' -> groupby_alias c0 = groupby_alias c0' -> orderby_alias c0 = orderby_alias c0' ->
  clause_ctx q (adjust_ctx q c0) = clause_ctx q (adjust_ctx q c0').
Proof.
  intros q [a1 a2 a3 a4 a5 a6 a7 a8 a9 a10 a11] [b1 b2 b3 b4 b5 b6 b7 b8 b9 b10 b11]; cbn; intros; subst.
  unfold clause_ctx, adjust_ctx. destruct (q_cls q); reflexivity.
Qed.

Lemma clause_ctx_standalone q c0 : clause_ctx q (adjust_ctx q (standalone c0)) = clause_ctx q (adjust_ctx q c0).
Proof. apply clause_ctx_conventions_only; reflexivity. Qed.

Lemma adjust_flags q c0 : subquery (adjust_ctx q c0) = subquery c0 /\ with_alias (adjust_ctx q c0) = with_alias c0.
Proof. unfold adjust_ctx; destruct (q_cls q); split; reflexivity. Qed.

Lemma standalone_flags c : subquery (standalone c) = false /\ with_alias (standalone c) = false.
Proof. split; reflexivity. Qed.

Lemma q_render_complete R q c00 p :
  q_render R q c00 p =
    if complete q then main_with R q (adjust_ctx q c00) (clause_ctx q (adjust_ctx q c00)) (subquery c00) (with_alias c00) p else Ok ([], p).
Proof.
  unfold q_render, complete. destruct (adjust_flags q c00) as [-> ->].
  destruct (negb _); [reflexivity|]. destruct (has_ins q && _); [reflexivity|]. destruct (has_upd q && _); reflexivity.
Qed.

(* of the context it is called with, a statement reads the two position flags and what the dialect override's copy leaves *)
Lemma render_query_ctx q c0 c0' p :
  adjust_ctx q c0 = adjust_ctx q c0' -> subquery c0 = subquery c0' -> with_alias c0 = with_alias c0' -> render_query c0 p q = render_query c0' p q.
Proof. intros H1 H2 H3. rewrite !render_query_eq, !q_render_complete, H1, H2, H3. reflexivity. Qed.

Lemma embedded_is_standalone : forall (c0 : ctx) (p : pz) (q : query),
  selectable q = true ->
  render_query c0 p q =
    match render_query (standalone c0) p q with
    | Ok (s, p') => Ok ((if complete q then embed c0 q s else s), p')
    | Exn e => Exn e
    end.
Proof.
  intros c0 p q Hs. rewrite !render_query_eq, !q_render_complete. destruct (complete q); [|reflexivity].
  rewrite clause_ctx_standalone. destruct (standalone_flags c0) as [-> ->].
  rewrite (main_wrap the_rens q (adjust_ctx q c0) (adjust_ctx q (standalone c0)) _ (subquery c0) (with_alias c0) p Hs).
  reflexivity.
Qed.

Lemma render_setop_eq : forall c p base ops obs lim off alias,
  render c p (TSetOp base ops obs lim off alias) = setop_render render_query render_sops render_obys render_o c p base ops obs lim off alias.
Proof. reflexivity. Qed.

Lemma setop_ctx_standalone c : setop_ctx (standalone c) = setop_ctx c.
Proof. unfold setop_ctx, standalone; cbn. destruct (dialect c); reflexivity. Qed.

Lemma setop_embedded_is_standalone : forall (c0 : ctx) (p : pz) base ops obs lim off alias,
  render c0 p (TSetOp base ops obs lim off alias) =
    match render (standalone c0) p (TSetOp base ops obs lim off alias) with
    | Ok (s, p') => Ok (alias_if (with_alias c0) (setop_ctx c0) (paren_if (subquery c0) s) alias, p')
    | Exn e => Exn e
    end.
Proof.
  intros. rewrite !render_setop_eq. unfold setop_render. rewrite setop_ctx_standalone.
  destruct (standalone_flags c0) as [-> ->].
  destruct (setop_body _ _ _ _ _ _ _ _ _ _ _) as [[s p5]|e]; reflexivity.
Qed.
