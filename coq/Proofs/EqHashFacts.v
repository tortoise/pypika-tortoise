(* Proofs/EqHashFacts.v — what the boolean equalities of Model/EqHash.v decide, and what follows for any == that decides equality of a key
   (symmetry) or goes with a hash that respects it (set lookup is a linear search).  Used by C14 (row sources) and C17 (tables). *)
From PT Require Import Base.Str Model.EqHash.
Open Scope N_scope.

Lemma strs_eqb_eq a b : strs_eqb a b = true <-> a = b.
Proof.
  revert b; induction a as [|x a IH]; intros [|y b]; cbn [strs_eqb]; try (split; [discriminate | congruence]).
  - split; reflexivity.
  - rewrite andb_true_iff, seqb_eq, IH. split; [intros [-> ->]; reflexivity | intro H; inversion H; auto].
Qed.
Lemma ostr_eqb_eq a b : ostr_eqb a b = true <-> a = b.
Proof. destruct a, b; cbn [ostr_eqb]; rewrite ?seqb_eq; split; congruence. Qed.
Lemma oschema_eqb_eq a b : oschema_eqb a b = true <-> a = b.
Proof. destruct a, b; cbn [oschema_eqb schema_eq]; rewrite ?strs_eqb_eq; split; congruence. Qed.

(* == on tables is exactly equality of the compared triple *)
Lemma tbl_eq_spec a b : tbl_eq a b = true <-> tbl_key a = tbl_key b.
Proof.
  unfold tbl_eq, tbl_key. rewrite !andb_true_iff, seqb_eq, oschema_eqb_eq, ostr_eqb_eq.
  split; [intros [[-> ->] ->]; reflexivity | intro H; inversion H; auto].
Qed.

Lemma eqb_sym {A K} {eqb : A -> A -> bool} {key : A -> K} (spec : forall a b, eqb a b = true <-> key a = key b) a b : eqb a b = eqb b a.
Proof. apply eq_iff_eq_true. rewrite !spec. split; intro H; symmetry; exact H. Qed.

(* membership in a set / dict (hash lookup, then ==) is a linear search with ==, provided equal elements have equal hashes (keys) *)
Lemma set_mem_linear {A K} (eq : A -> A -> bool) (key : A -> K) keq :
  (forall a b, eq a b = true -> keq (key a) (key b) = true) -> forall x s, set_mem eq key keq x s = list_mem eq x s.
Proof. intros H x s. apply existsb_ext. intro y. destruct (eq y x) eqn:E; [rewrite (H _ _ E); reflexivity | apply andb_false_r]. Qed.
