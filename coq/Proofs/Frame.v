(* Proofs/Frame.v — the frame argument for builder calls (C01, C15) and render calls (C02), over
   an abstract object heap: locations are numbers, `old l` says that l existed before the call.
   A builder call first copies the receiver (utils.builder: copy.copy, or the class's __copy__):
   the copy self' is a fresh location whose attributes hold the same values, except that every
   attribute re-copied by the copy rule holds a fresh container.  The method body is then
   abstracted by its may-write effects (tools/gen_effects.py).  `cells` gives the heap cells an
   effect may write in a given environment; the theorem says that for a method accepted by
   Model.Effects.builder_ok_from every such cell is either fresh or the alias field of an argument
   whose alias was None — the one side effect the property permits. *)
From PT Require Import Base.Str Model.Effects.
Open Scope N_scope.

Section Frame.
Variable classes : list classrec.
Variable mn : list str.                 (* names of mutating non-builder methods *)
Variable c : classrec.

Definition loc := nat.
Variable old : loc -> bool.             (* existed before the call *)
Variable self' : loc.                   (* the shallow copy made by the decorator *)
Variable argloc : str -> list str -> loc.   (* object reached from a named argument through a path *)
Variable alias_is_none : loc -> bool.   (* in the heap before the call *)

(* the environment threads, for each attribute of self', the location of the object it holds *)
Definition env := str -> loc.

Inductive cell := Cell (l : loc) (field : str) | Whole (l : loc).   (* one field / any part of an object *)

Definition cell_loc (x : cell) : loc := match x with Cell l _ | Whole l => l end.

(* cells an effect may write, and the environment after it *)
Definition cells (e : env) (eff : effect) : list cell :=
  match eff with
  | EStore RSelf [] a _ _ => [Cell self' a]
  | EMutate RSelf [] => [Whole self']
  | EMutate RSelf [a] => [Whole (e a)]
  | EAugMutate RSelf [a] => if mem a (containers_of classes c) then [Whole (e a); Cell self' a] else [Cell self' a]
  | EStore (RArg x) path a guard _ =>
      (* a store under the guard `<arg>.alias is None` executes only when that alias is None *)
      if guard && negb (alias_is_none (argloc x path)) then [] else [Cell (argloc x path) a]
  | _ => []        (* deeper paths and argument mutation are rejected by the checker; calls are judged by name *)
  end.

(* a permitted write: to something that did not exist before, or the None alias of an argument *)
Definition permitted (x : cell) : Prop :=
  old (cell_loc x) = false \/
  (exists l, x = Cell l (L "alias") /\ alias_is_none l = true).

(* hypotheses on the environment: what the copy rule (and earlier unconditional rebinding) made fresh *)
Definition env_ok (rebound : list str) (e : env) : Prop :=
  forall a, mem a (recopied c) = true \/ mem a rebound = true -> old (e a) = false.

Hypothesis self_fresh : old self' = false.

(* environment update: an unconditional store of a fresh container makes that attribute fresh *)
Variable fresh_loc : loc.
Hypothesis fresh_loc_fresh : old fresh_loc = false.
Definition upd (e : env) (eff : effect) : env :=
  match eff with
  | EStore RSelf [] a _ true => fun b => if seqb a b then fresh_loc else e b
  | _ => e
  end.

Fixpoint all_cells (e : env) (effs : list effect) : list cell :=
  match effs with
  | [] => []
  | x :: r => cells e x ++ all_cells (upd e x) r
  end.

Lemma cells_permitted rebound e eff effs :
  builder_ok_from classes mn c rebound (eff :: effs) = true -> env_ok rebound e -> Forall permitted (cells e eff).
Proof.
  cbn [builder_ok_from]. intros Hhere Henv. apply andb_true_iff in Hhere as [Hhere _].
  assert (Hself : forall a, Forall permitted [Cell self' a]) by (intro a; repeat constructor; exact self_fresh).
  assert (Hmut : forall a, mem a (recopied c) || mem a rebound = true -> permitted (Whole (e a)))
    by (intros a Ha; left; apply Henv, orb_true_iff, Ha).
  destruct eff as [[|x] path a g f|[|x] path|[|x] path|r path|n gs|r path n]; cbn [cells]; try apply Forall_nil.
  - destruct path; [apply Hself | discriminate Hhere].
  - apply andb_true_iff in Hhere as [Ha Hg]. apply seqb_eq in Ha. subst a g.
    destruct (alias_is_none (argloc x path)) eqn:E; [|apply Forall_nil].
    apply Forall_cons; [|apply Forall_nil]. right. exists (argloc x path). split; [reflexivity|exact E].
  - destruct path as [|a [|b path]]; try discriminate Hhere; apply Forall_cons; try apply Forall_nil; [left; exact self_fresh | apply Hmut, Hhere].
  - destruct path as [|a [|b path]]; try discriminate Hhere.
    destruct (mem a (containers_of classes c)); [apply Forall_cons; [apply Hmut, Hhere|] |]; apply Hself.
Qed.

Lemma env_ok_upd rebound e eff :
  env_ok rebound e -> env_ok (match eff with EStore RSelf [] a _ true => a :: rebound | _ => rebound end) (upd e eff).
Proof.
  intros Henv a Ha. unfold upd.
  destruct eff as [[|x] [|? ?] b g [|]|r path|r path|r path|n gs|r path n]; try (apply Henv; exact Ha).
  destruct (seqb b a) eqn:E; [exact fresh_loc_fresh|].
  apply Henv. destruct Ha as [Ha|Ha]; [left; exact Ha|]. right.
  unfold mem in *. cbn [existsb] in Ha. apply orb_true_iff in Ha as [Ha|Ha]; [|exact Ha].
  apply seqb_eq in Ha. subst. rewrite seqb_refl in E. discriminate E.
Qed.

Theorem builder_frame : forall effs rebound e,
  builder_ok_from classes mn c rebound effs = true ->
  env_ok rebound e ->
  Forall permitted (all_cells e effs).
Proof.
  induction effs as [|eff effs IH]; intros rebound e Hok Henv; [constructor|].
  cbn [all_cells]. apply Forall_app. split.
  - exact (cells_permitted rebound e eff effs Hok Henv).
  - cbn [builder_ok_from] in Hok. apply andb_true_iff in Hok as [_ Hrest].
    exact (IH _ _ Hrest (env_ok_upd rebound e eff Henv)).
Qed.

(* render calls: a method accepted by render_ok writes no cell at all (the one exception,
   ctx.parameterizer.create_param, is a call on the caller's parameterizer and is judged by name) *)
Definition render_cells (eff : effect) : list cell :=
  match eff with
  | EStore RSelf path a _ _ => [Cell self' a]
  | EStore (RArg x) path a _ _ => [Cell (argloc x path) a]
  | EMutate RSelf _ | EAugMutate RSelf _ => [Whole self']
  | EMutate (RArg x) path | EAugMutate (RArg x) path => [Whole (argloc x path)]
  | _ => []
  end.

Theorem render_frame : forall effs, forallb (render_ok_eff classes mn c) effs = true -> flat (map render_cells effs) = [].
Proof.
  induction effs as [|eff effs IH]; [reflexivity|]. cbn [forallb map flat concat]. intro H.
  apply andb_true_iff in H as [H1 H2]. unfold flat in *. rewrite (IH H2), app_nil_r.
  destruct eff as [r path a g f|r path|r path|r path|n gs|r path n]; try discriminate; reflexivity.
Qed.

End Frame.
