(* Proofs/Thread.v — the parameterizer is threaded: every renderer of Model.Render only APPENDS to the list of values
   (and never changes the placeholder factory), for all terms, statements, contexts and parameterizer states; in inline
   mode (no parameterizer) it stays absent.  By mutual induction over the 17 sorts of Model/Syntax.v (16 renderers: qflags has
   none); the statement case goes through the clause definitions of Section Q (Model/Render.v) with the recursive renderers abstract. *)
From PT Require Import Model.Types Model.Syntax Model.Render Proofs.Thr.
Open Scope N_scope.

(* a statement: the clauses thread the parameterizer if the renderers do so on the statement's fields *)
Section QueryThread.
Variable R : rens.
Variable q : query.
Hypothesis Hfrom : forall c, WT (fun p => r_ts R c p (q_from q)).
Hypothesis Hselects : forall c, WT (fun p => r_ts R c p (q_selects q)).
Hypothesis Hforce : forall c, WT (fun p => r_ts R c p (q_force_idx q)).
Hypothesis Huse : forall c, WT (fun p => r_ts R c p (q_use_idx q)).
Hypothesis Hcolumns : forall c, WT (fun p => r_ts R c p (q_columns q)).
Hypothesis Hcfields : forall c, WT (fun p => r_ts R c p (q_conflict_fields q)).
Hypothesis Hreturns : forall c, WT (fun p => r_ts R c p (q_returns q)).
Hypothesis Hdistinct_on : forall c, WT (fun p => r_ts R c p (q_distinct_on q)).
Hypothesis Hwheres : forall c, WT (fun p => r_o R c p (q_wheres q)).
Hypothesis Hprewheres : forall c, WT (fun p => r_o R c p (q_prewheres q)).
Hypothesis Hhavings : forall c, WT (fun p => r_o R c p (q_havings q)).
Hypothesis Hlim : forall c, WT (fun p => r_o R c p (q_lim q)).
Hypothesis Hoff : forall c, WT (fun p => r_o R c p (q_off q)).
Hypothesis Hinsert_table : forall c, WT (fun p => r_o R c p (q_insert_table q)).
Hypothesis Hupdate_table : forall c, WT (fun p => r_o R c p (q_update_table q)).
Hypothesis Hcwheres : forall c, WT (fun p => r_o R c p (q_conflict_wheres q)).
Hypothesis Hcuwheres : forall c, WT (fun p => r_o R c p (q_conflict_update_wheres q)).
Hypothesis Horderbys : forall c sel b, WT (fun p => r_obys R c sel b p (q_orderbys q)).
Hypothesis Hvalues : forall c, WT (fun p => r_rows R c p (q_values q)).
Hypothesis Hupdates : forall cf cv, WT (fun p => r_upds R cf cv p (q_updates q)).
Hypothesis Hcupdates : forall cf cv mq, WT (fun p => r_cupds R cf cv mq p (q_conflict_updates q)).
Hypothesis Hjoins : forall c, WT (fun p => r_joins R c p (q_joins_ q)).
Hypothesis Hwiths : forall c, WT (fun p => r_ctes R c p (q_withs q)).
Hypothesis Hgroupbys : forall c, WT (fun p => r_gbys R c p (q_groupbys q)).
(* the temporal clauses of the UPDATE target, rendered on their own by the PostgreSQL / SQLite UPDATE .. FROM form *)
Hypothesis Hupd_parts : match q_update_table q with
                        | SomeT (TTable _ f fp) => (forall c, WT (fun p => r_o R c p f)) /\ (forall c, WT (fun p => r_o R c p fp))
                        | _ => True
                        end.

Lemma with_sql_wt c : WT (with_sql R q c).                 Proof. unfold with_sql. wtg. Qed.
Lemma distinct_sql_wt c : WT (distinct_sql R q c).         Proof. unfold distinct_sql. wtg. Qed.
Lemma from_sql_wt c : WT (from_sql R q c).                 Proof. unfold from_sql, from_list_sql. wtg. Qed.
Lemma joins_sql_wt c : WT (joins_sql R q c).               Proof. unfold joins_sql. wtg. Qed.
Lemma where_sql_wt c : WT (where_sql R q c).               Proof. unfold where_sql. wtg. Qed.
Lemma prewhere_sql_wt c : WT (prewhere_sql R q c).         Proof. unfold prewhere_sql. wtg. Qed.
Lemma set_sql_wt c : WT (set_sql R q c).                   Proof. unfold set_sql. wtg. Qed.
Lemma orderby_sql_c_wt cc : WT (orderby_sql_c R q cc).     Proof. unfold orderby_sql_c. wtg. Qed.
Lemma orderby_sql_wt c : WT (orderby_sql R q c).           Proof. apply orderby_sql_c_wt. Qed.
Lemma limit_kw_sql_c_wt cc : WT (limit_kw_sql_c R q cc).   Proof. unfold limit_kw_sql_c. wtg. Qed.
Lemma limit_kw_sql_wt c : WT (limit_kw_sql R q c).         Proof. apply limit_kw_sql_c_wt. Qed.
Lemma offset_kw_sql_wt c : WT (offset_kw_sql R q c).       Proof. unfold offset_kw_sql. wtg. Qed.
Lemma table_sql_ins_wt cc : WT (fun p => table_sql R cc p (q_insert_table q)).  Proof. unfold table_sql. wtg. Qed.
Lemma table_sql_upd_wt cc : WT (fun p => table_sql R cc p (q_update_table q)).  Proof. unfold table_sql. wtg. Qed.
Lemma on_conflict_sql_wt c : WT (on_conflict_sql R q c).   Proof. unfold on_conflict_sql. wtg. Qed.
Lemma on_conflict_action_sql_wt c : WT (on_conflict_action_sql R q c).  Proof. unfold on_conflict_action_sql. wtg. Qed.
Lemma returning_wt c qs : WT (returning R q c qs).         Proof. unfold returning. wtg. Qed.
#[local] Hint Resolve with_sql_wt distinct_sql_wt from_sql_wt joins_sql_wt where_sql_wt prewhere_sql_wt set_sql_wt orderby_sql_c_wt orderby_sql_wt
  limit_kw_sql_c_wt limit_kw_sql_wt offset_kw_sql_wt table_sql_ins_wt table_sql_upd_wt on_conflict_sql_wt on_conflict_action_sql_wt returning_wt : wt.

Lemma select_sql_wt c : WT (select_sql R q c).             Proof. unfold select_sql. wtg. Qed.
Lemma pagination_wt c : WT (pagination R q c).             Proof. unfold pagination. wtg. Qed.
Lemma generic_update_wt c : WT (generic_update R q c).     Proof. unfold generic_update. wtg. Qed.
Lemma pg_sqlite_update_wt c : WT (pg_sqlite_update R q c).
Proof. unfold pg_sqlite_update. wtg. (* left: the two temporal clauses *) all: destruct Hupd_parts; auto. Qed.
#[local] Hint Resolve select_sql_wt pagination_wt generic_update_wt pg_sqlite_update_wt : wt.
Lemma tail_with_wt c sq wa qs : WT (tail_with R q c sq wa qs).  Proof. unfold tail_with. wtg. Qed.
#[local] Hint Resolve tail_with_wt : wt.
Lemma generic_with_wt c sq wa : WT (generic_with R q c sq wa).  Proof. unfold generic_with. wtg. Qed.
#[local] Hint Resolve generic_with_wt : wt.
Lemma main_with_wt c0 c sq wa : WT (main_with R q c0 c sq wa).  Proof. unfold main_with. wtg. Qed.
#[local] Hint Resolve main_with_wt : wt.
Lemma q_render_wt c00 : WT (q_render R q c00).             Proof. unfold q_render. wtg. Qed.

End QueryThread.

(* what the UPDATE .. FROM form needs of a table term *)
Definition sub_ok (t : term) : Prop :=
  match t with
  | TTable _ f fp => (forall c, WT (fun p => render_o c p f)) /\ (forall c, WT (fun p => render_o c p fp))
  | _ => True
  end.
Definition P_term (t : term) := (forall c, WT (fun p => render c p t)) /\ sub_ok t.

Definition threads {X A} (f : ctx -> pz -> X -> res (A * pz)) (x : X) : Prop := forall c, WT (fun p => f c p x).

Lemma from_o t : (forall c, WT (fun p => render_o c p (SomeT t))) -> forall c, WT (fun p => render c p t).
Proof. intros H c p s p' E. apply (H c p (Some s) p'). cbn [render_o]. rewrite E. reflexivity. Qed.
#[local] Hint Resolve from_o : wt.

Theorem thread_all : forall t, P_term t.
Proof.
  apply (term_mut P_term
           (fun o => threads render_o o /\ match o with SomeT t => sub_ok t | NoT => True end)
           (threads render_ts) (threads render_cases)
           (fun l => forall c sel b, WT (fun p => render_obys c sel b p l))
           (threads render_gbys) (threads render_over) (threads render_rows)
           (fun l => forall cf cv, WT (fun p => render_upds cf cv p l))
           (fun l => forall cf cv mq, WT (fun p => render_cupds cf cv mq p l))
           (threads render_join) (threads render_joins)
           (fun l => forall c n, WT (fun p => render_sops c n p l))
           (threads render_ctes) (threads render_cols) (threads render_query) (fun _ => True));
    intros; hnf in * |-; repeat match goal with H : _ /\ _ |- _ => destruct H end; unfold threads in *.
  (* sub_ok of a term: the induction hypotheses on the clauses of a table, nothing for the others *)
  all: try (split; [|solve [cbn [sub_ok]; auto]]).
  all: intros; cbn [render render_o render_ts render_cases render_obys render_gbys render_over render_rows render_upds render_cupds render_join render_joins render_sops render_ctes render_cols];
    wtg.
  - (* TVal: the value becomes a parameter *) apply wt_param, wt_ret.
  - (* TArray: an array without terms becomes one parameter *) destruct hasterm; [wtg | apply (wt_param _ _ true); wtg].
  - (* TSetOp *) unfold setop_render, setop_body. wtg.
  - (* MkQ: the clauses; Hupd_parts is the sub_ok part of the hypothesis on update_table *)
    cbn [render_query]. apply q_render_wt; assumption.
Qed.

Corollary thread_term : forall t c p s p', render c p t = Ok (s, p') -> thr p p'.
Proof. intros t c p s p' H. exact (proj1 (thread_all t) c p s p' H). Qed.

Theorem thread_query : forall q c p s p', render_query c p q = Ok (s, p') -> thr p p'.
Proof. intros q c p s p' H. exact (thread_term (TQuery q) c p s p' H). Qed.
