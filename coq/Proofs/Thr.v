(* Proofs/Thr.v — thr p p': the parameterizer state p' extends p (same placeholder factory, values appended; absent stays absent).
   WT f: the state-passing computation f only extends its state.  The rules for Ok, Exn, bind and the creation of a parameter,
   and the tactic that applies them along the body of a renderer. *)
From PT Require Import Base.Str Model.Render.
Open Scope N_scope.

Definition thr (p p' : pz) : Prop :=
  match p, p' with
  | None, None => True
  | Some z, Some z' => pz_factory z' = pz_factory z /\ exists ext, pz_vals z' = pz_vals z ++ ext
  | _, _ => False
  end.

Lemma thr_refl p : thr p p.
Proof. destruct p as [z|]; simpl; auto. split; auto. exists []. rewrite app_nil_r. reflexivity. Qed.
Lemma thr_trans a b c : thr a b -> thr b c -> thr a c.
Proof.
  destruct a as [x|], b as [y|], c as [z|]; simpl; try tauto.
  intros [F1 [e1 E1]] [F2 [e2 E2]]. split; [congruence|]. exists (e1 ++ e2). rewrite E2, E1, app_assoc. reflexivity.
Qed.

Definition WT {A} (f : pz -> res (A * pz)) : Prop := forall p a p', f p = Ok (a, p') -> thr p p'.

Lemma wt_ret {A} (a : A) : WT (fun p => Ok (a, p)).
Proof. intros p a' p' H. inversion H; subst. apply thr_refl. Qed.
Lemma wt_exn {A} e : WT (fun p => @Exn (A * pz) e).
Proof. intros p a p' H. discriminate. Qed.
Lemma wt_bind {A B} (f : pz -> res (A * pz)) (g : A -> pz -> res (B * pz)) :
  WT f -> (forall a, WT (g a)) -> WT (fun p => do (a, p1) <- f p; g a p1).
Proof.
  intros Hf Hg p b p' H. destruct (f p) as [[a p1]|e] eqn:E; [|discriminate].
  eapply thr_trans; [eapply Hf; eassumption|eapply Hg; eassumption].
Qed.
Lemma wt_if {A} (b : bool) (f g : pz -> res (A * pz)) : WT f -> WT g -> WT (fun p => if b then f p else g p).
Proof. destruct b; auto. Qed.

(* the one step that changes the state: with a parameterizer present (and the value eligible, b) Parameterizer.create_param appends the value
   and keeps the factory; otherwise the renderer goes on as g *)
Lemma wt_param {A} c vid (b : bool) (k : str -> A) (g : pz -> res (A * pz)) : WT g ->
  WT (fun p => match p with
               | Some z => if b then let '(txt, z') := create_param c z vid in Ok (k txt, Some z') else g p
               | None => g p
               end).
Proof.
  intros Hg [z|] a p' H; [destruct b|]; try (eapply Hg; eassumption).
  inversion H. simpl. split; [reflexivity|]. eexists; reflexivity.
Qed.

(* WT (fun p => body) by the shape of body: a let is expanded; a conditional is wt_if; any other match on something that does not mention
   the state p is a case distinction (on a scrutinee that mentions p the destruct fails, and the next clause is tried); a bind is wt_bind;
   what is left is Ok, Exn or the renderer of a part, for which the hypotheses and the hint database wt are asked.  A part they do not
   cover is left as a goal. *)
Create HintDb wt.
#[export] Hint Resolve wt_ret wt_exn : wt.
Ltac wtg :=
  match goal with
  | |- WT (fun p => let _ := _ in _) => cbv zeta; wtg
  | |- WT (fun p => if _ then _ else _) => apply wt_if; wtg
  | |- WT (fun p => match ?x with _ => _ end) => destruct x; wtg
  | |- WT (fun p => match _ with Ok _ => _ | Exn _ => Exn _ end) => apply wt_bind; [wtg | intro; wtg]
  | |- _ => auto with wt
  end.
