(* Proofs/IntervalLemmas.v — generic lemmas for C18: how trim acts on a formatted field list, and
   how the reference reader reads one back. *)
From PT Require Import Base.Str Model.Interval Ref.IntervalRead.
From Coq Require Import Lia ZifyBool.
Open Scope N_scope.

Lemma nz_facts c : is_nzdigit c = true ->
  in_cls c = false /\ (c =? 46) = false /\ (c =? 48) = false.
Proof. unfold is_nzdigit, in_cls. intros. lia. Qed.

Lemma digit_facts c : is_digit c = true -> in_sep4 c = false /\ (c =? 46) = false /\ (c =? 45) = false /\ (c =? 39) = false.
Proof. unfold is_digit, in_sep4. intros. lia. Qed.

Lemma sep4_facts c : in_sep4 c = true -> in_cls c = true /\ is_digit c = false /\ (c =? 39) = false.
Proof. unfold in_sep4, in_cls, is_digit. intros. lia. Qed.

Lemma cls_N_to_str v : forallb in_cls (N_to_str v) = (v =? 0).
Proof.
  destruct (N.eqb_spec v 0) as [->|Hv]; [reflexivity|].
  destruct (N_to_str_nz v Hv) as (c & r & E & Hc). rewrite E. simpl.
  destruct (nz_facts c Hc) as (-> & _). reflexivity.
Qed.

Lemma allzero_cls s : all_zero s = true -> forallb in_cls s = true.
Proof.
  unfold all_zero. rewrite !forallb_forall. intros H c Hc. unfold in_cls. rewrite (H c Hc). reflexivity.
Qed.

(* the fields after the first, each as its separator and its decimal value; trimr: without the trailing zero fields *)
Definition rest (l : list (char * N)) : str := flat (map (fun p => fst p :: N_to_str (snd p)) l).
Fixpoint trimr (l : list (char * N)) : list (char * N) :=
  match l with
  | [] => []
  | (s, v) :: r => match trimr r with
                   | [] => if v =? 0 then [] else [(s, v)]
                   | r' => (s, v) :: r'
                   end
  end.
Definition seps_ok (l : list (char * N)) : Prop := Forall (fun p => in_sep4 (fst p) = true) l.

Lemma rest_cons s v l : rest ((s, v) :: l) = s :: N_to_str v ++ rest l.
Proof. reflexivity. Qed.

Lemma rest_cls l : seps_ok l -> forallb in_cls (rest l) = match trimr l with [] => true | _ => false end.
Proof.
  induction 1 as [|[s v] l Hs Hl IH]; [reflexivity|].
  rewrite rest_cons. cbn [forallb trimr]. rewrite forallb_app, cls_N_to_str, IH.
  simpl in Hs. destruct (sep4_facts s Hs) as (-> & _). destruct (trimr l); [destruct (v =? 0)|rewrite andb_false_r]; reflexivity.
Qed.

Lemma trimr_firstn l : trimr l = firstn (length (trimr l)) l.
Proof.
  induction l as [|[s v] l IH]; [reflexivity|]. cbn [trimr]. destruct (trimr l).
  - destruct (v =? 0); reflexivity.
  - simpl. f_equal. exact IH.
Qed.

Lemma seps_ok_trimr l : seps_ok l -> seps_ok (trimr l).
Proof.
  intro H. rewrite trimr_firstn. rewrite <- (firstn_skipn (length (trimr l)) l) in H. apply Forall_app in H. apply H.
Qed.

(* trimr is the specification's drop_trail0, on fields that carry their separator instead of their index *)
Lemma trimr_drop_trail0 l : forall i, label_from i (map snd (trimr l)) = drop_trail0 (label_from i (map snd l)).
Proof.
  induction l as [|[s v] l IH]; intro i; [reflexivity|]. cbn [trimr map snd label_from drop_trail0].
  rewrite <- IH. destruct (trimr l); [destruct (v =? 0)|]; reflexivity.
Qed.

Lemma scan_digit c r : is_digit c = true -> scan (c :: r) = c :: scan r.
Proof.
  intro Hc. destruct (digit_facts c Hc) as (H4 & H46 & _).
  cbn [scan]. unfold alt2, alt4. rewrite H4, H46. destruct r; reflexivity.
Qed.

Lemma scan_digits F R : all_digits F = true -> scan (F ++ R) = F ++ scan R.
Proof.
  unfold all_digits. induction F as [|c F IH]; [reflexivity|]. cbn [forallb app]. intro H. apply andb_true_iff in H as [Hc HF].
  rewrite scan_digit by assumption. rewrite IH by assumption. reflexivity.
Qed.

Lemma scan_sep s T : in_sep4 s = true -> T <> [] ->
  scan (s :: T) = if forallb in_cls T then [] else s :: scan T.
Proof.
  intros Hs HT. cbn [scan]. unfold alt2, alt4. destruct T as [|t T']; [congruence|].
  rewrite Hs.
  destruct (forallb in_cls (t :: T')) eqn:E.
  - rewrite orb_true_r. reflexivity.
  - rewrite orb_false_r.
    destruct ((s =? 46) && all_zero (t :: T')) eqn:E2; [|reflexivity].
    apply andb_true_iff in E2 as [_ E2]. apply allzero_cls in E2. congruence.
Qed.

Lemma scan_rest l : seps_ok l -> scan (rest l) = rest (trimr l).
Proof.
  induction 1 as [|[s v] l Hs Hl IH]; [reflexivity|].
  simpl in Hs. rewrite rest_cons.
  assert (HT : N_to_str v ++ rest l <> []).
  { pose proof (N_to_str_nonnil v). destruct (N_to_str v); simpl; congruence. }
  rewrite scan_sep by assumption.
  rewrite forallb_app, cls_N_to_str, rest_cls by assumption.
  rewrite scan_digits by apply N_to_str_digits. rewrite IH.
  cbn [trimr]. destruct (trimr l); [destruct (v =? 0)|rewrite andb_false_r]; reflexivity.
Qed.

Lemma last_sep3_app pre c X :
  forallb in_cls pre = true -> in_cls c = false -> last_sep3 (pre ++ c :: X) = last_sep3 pre.
Proof.
  intros Hp Hc. induction pre as [|p pre IH]; simpl.
  - rewrite Hc. reflexivity.
  - simpl in Hp. apply andb_true_iff in Hp as [Hp1 Hp2]. rewrite Hp1, IH by assumption. reflexivity.
Qed.

(* a non-empty all-cls prefix that ends in a sep3 character is removed as a whole *)
Lemma trim_strip pre c X :
  forallb in_cls pre = true -> last_sep3 pre = Some (length pre) -> (2 <= length pre)%nat ->
  in_cls c = false ->
  alt1 (pre ++ c :: X) = None -> alt2 (pre ++ c :: X) = false ->
  trim (pre ++ c :: X) = scan (c :: X).
Proof.
  intros Hp Hl Hlen Hc H1 H2. unfold trim. rewrite H1, H2. unfold alt3.
  rewrite last_sep3_app, Hl by assumption.
  destruct (Nat.leb_spec 2 (length pre)); [|lia]. rewrite skipn_app, skipn_all, Nat.sub_diag. reflexivity.
Qed.

(* no prefix to remove: the string starts with a non-zero digit *)
Lemma trim_nostrip c X : is_nzdigit c = true -> trim (c :: X) = scan (c :: X).
Proof.
  intro Hc. destruct (nz_facts c Hc) as (Hcls & H46 & H48).
  unfold trim, alt1, alt2, alt3. cbn [zeros_then_dot last_sep3]. rewrite H48, H46, Hcls. cbn [andb].
  destruct X; reflexivity.
Qed.

Lemma span_digits_app F R : all_digits F = true -> (match R with [] => True | c :: _ => is_digit c = false end) ->
  span_digits (F ++ R) = (F, R).
Proof.
  intros HF HR. induction F as [|c F IH]; simpl.
  - destruct R as [|c R]; [reflexivity|]. simpl. rewrite HR. reflexivity.
  - simpl in HF. apply andb_true_iff in HF as [Hc HF]. rewrite Hc, IH by assumption. reflexivity.
Qed.

Lemma read_fields_rest v l : seps_ok l ->
  read_fields (map fst l) (N_to_str v ++ rest l) = Some (v :: map snd l).
Proof.
  intro Hl. revert v. induction Hl as [|[s w] l Hs Hl IH]; intro v.
  - change (rest []) with (@nil char). cbn [map read_fields].
    rewrite span_digits_app, read_dec_N_to_str; [reflexivity|apply N_to_str_digits|exact I].
  - rewrite rest_cons. cbn [map fst snd read_fields].
    destruct (sep4_facts s Hs) as (_ & Hd & _).
    rewrite span_digits_app; [|apply N_to_str_digits|exact Hd].
    rewrite read_dec_N_to_str, N.eqb_refl, IH. reflexivity.
Qed.

Lemma split_at_app c a b : forallb (fun x => negb (x =? c)) a = true -> split_at c (a ++ c :: b) = Some (a, b).
Proof.
  induction a as [|x a IH]; simpl; intro H.
  - rewrite N.eqb_refl. reflexivity.
  - apply andb_true_iff in H as [Hx Ha]. apply negb_true_iff in Hx. rewrite Hx, IH by assumption. reflexivity.
Qed.

Lemma split_last_app c a b : forallb (fun x => negb (x =? c)) b = true -> split_last c (a ++ c :: b) = Some (a, b).
Proof.
  intro H. unfold split_last. rewrite rev_app_distr. simpl. rewrite <- app_assoc. simpl.
  rewrite split_at_app.
  - rewrite !rev_involutive. reflexivity.
  - rewrite forallb_forall in *. intros x Hx. apply H. apply in_rev. assumption.
Qed.

Definition wrap (t : str * str * str) (e u : str) : str := let '(p1, p2, p3) := t in p1 ++ e ++ p2 ++ u ++ p3.

Lemma strip_prefix_app p s : strip_prefix p (p ++ s) = Some s.
Proof. induction p; simpl; [reflexivity|]. rewrite N.eqb_refl. assumption. Qed.
