(* Proofs/IntervalMain.v — C18: the literal printed by the model denotes the constructor arguments.
   The components case is organised around the position k of the first non-zero component: the arguments are
   k zeros, a value zA <> 0, and the remaining fields lz with their separators.  What __init__ records, what
   survives the trimming, what the arguments denote and what the reader reads are each stated on that form
   for all k at once; only the layout of fmt7 is supplied per position. *)
From PT Require Import Base.Str Gen.Interval Model.Interval Ref.IntervalRead Proofs.IntervalLemmas.
From Coq Require Import Lia.
Open Scope N_scope.

(* the generated template table agrees with the specification's quoting forms *)
Lemma template_kind d :
  (quote_inside_unit d = true /\ template d = (L "INTERVAL '", L " ", L "'")) \/
  (quote_inside_unit d = false /\ template d = (L "INTERVAL '", L "' ", [])).
Proof. destruct d; vm_compute; auto. Qed.

Definition noq (s : str) : bool := forallb (fun x => negb (x =? 39)) s.
Definition nosp (s : str) : bool := forallb (fun x => negb (x =? 32)) s.

Lemma read_wrap d e u : noq e = true -> nosp u = true ->
  read_interval d (wrap (template d) e u) = read_expr u e.
Proof.
  intros He Hu. unfold read_interval. destruct (template_kind d) as [[Hk Ht]|[Hk Ht]]; rewrite Ht; unfold wrap; rewrite strip_prefix_app, Hk.
  - replace (e ++ L " " ++ u ++ L "'") with ((e ++ 32 :: u) ++ [39]) by (simpl; rewrite <- app_assoc; reflexivity).
    rewrite rev_app_distr. simpl. rewrite rev_involutive, split_last_app by assumption. reflexivity.
  - rewrite app_nil_r. change (e ++ L "' " ++ u) with (e ++ 39 :: 32 :: u).
    rewrite split_at_app by assumption. reflexivity.
Qed.

Lemma noq_digits s : all_digits s = true -> noq s = true.
Proof.
  unfold all_digits, noq. rewrite !forallb_forall. intros H c Hc.
  destruct (digit_facts c (H c Hc)) as (_ & _ & _ & ->). reflexivity.
Qed.

Lemma noq_fields v l : seps_ok l -> noq (N_to_str v ++ rest l) = true.
Proof.
  intro H. revert v. induction H as [|[s w] l Hs Hl IH]; intro v; unfold noq in *; rewrite forallb_app;
    rewrite noq_digits by apply N_to_str_digits; [reflexivity|].
  rewrite rest_cons. cbn [forallb]. rewrite IH.
  destruct (sep4_facts s Hs) as (_ & _ & ->). reflexivity.
Qed.

(* the generic core: a signed field list under a designator that names its layout reads back *)
Lemma core d (neg : bool) (vA : N) (lAB : list (char * N)) (u : str) (i j : nat) :
  vA <> 0 \/ neg = false -> seps_ok lAB -> nosp u = true ->
  read_unit u = Some (i, j) -> map fst lAB = firstn (j - i) (skipn i std_seps) ->
  read_interval d (wrap (template d) ((if neg then [45] else []) ++ N_to_str vA ++ rest lAB) u)
  = Some (IV neg (label_from i (vA :: map snd lAB))).
Proof.
  intros _ Hl Hu Hru Hseps.
  rewrite read_wrap; [|destruct neg; exact (noq_fields vA lAB Hl)|assumption].
  unfold read_expr. rewrite Hru, <- Hseps.
  pose proof (read_fields_rest vA lAB Hl) as Hf.
  destruct neg; cbn [app].
  - rewrite N.eqb_refl, Hf. reflexivity.
  - destruct (N_to_str_cons vA) as (c & r & E & Hc & _). rewrite E in *.
    destruct (digit_facts c Hc) as (_ & _ & H45 & _). cbn [app] in *. rewrite H45, Hf. reflexivity.
Qed.

(* what trim_strip asks of a prefix it removes, for every continuation Y; or no prefix at all *)
Definition pre_ok (pre : str) : Prop :=
  pre = [] \/ (forallb in_cls pre = true /\ last_sep3 pre = Some (length pre) /\ (2 <= length pre)%nat /\
               (forall Y, alt1 (pre ++ Y) = None) /\ (forall Y, alt2 (pre ++ Y) = false)).

(* zero fields, each followed by one of - : space: alternatives 1 and 2 of trim fail on the second character, alternative 3 removes the
   run.  After the split on the separator, the clauses H1, H2 for the shorter prefix let forallb and last_sep3 compute. *)
Lemma pre_ok_zeros seps : forallb in_sep3 seps = true -> pre_ok (flat (map (fun s => [48; s]) seps)).
Proof.
  induction seps as [|s seps IH]; [left; reflexivity|]. cbn [forallb]. intro H. apply andb_true_iff in H as [Hs H].
  assert (Hs' : s = 45 \/ s = 58 \/ s = 32) by (unfold in_sep3 in Hs; lia).
  right. change (flat _) with (48 :: s :: flat (map (fun s => [48; s]) seps)).
  destruct (IH H) as [->|(H1 & H2 & _)]; destruct Hs' as [-> | [-> | ->]];
    cbn [forallb last_sep3 length]; rewrite ?H1, ?H2; auto 6 with arith.
Qed.

Lemma pre_ok0 : pre_ok []. Proof. exact (pre_ok_zeros [] eq_refl). Qed.
Lemma pre_ok1 : pre_ok [48;45]. Proof. exact (pre_ok_zeros [45] eq_refl). Qed.
Lemma pre_ok2 : pre_ok [48;45;48;45]. Proof. exact (pre_ok_zeros [45;45] eq_refl). Qed.
Lemma pre_ok3 : pre_ok [48;45;48;45;48;32]. Proof. exact (pre_ok_zeros [45;45;32] eq_refl). Qed.
Lemma pre_ok4 : pre_ok [48;45;48;45;48;32;48;58]. Proof. exact (pre_ok_zeros [45;45;32;58] eq_refl). Qed.
Lemma pre_ok5 : pre_ok [48;45;48;45;48;32;48;58;48;58]. Proof. exact (pre_ok_zeros [45;45;32;58;58] eq_refl). Qed.

Lemma trim_fields pre vA lA : vA <> 0 -> seps_ok lA -> pre_ok pre ->
  trim (pre ++ N_to_str vA ++ rest lA) = N_to_str vA ++ rest (trimr lA).
Proof.
  intros Hv Hl Hp.
  assert (Hscan : scan (N_to_str vA ++ rest lA) = N_to_str vA ++ rest (trimr lA))
    by (rewrite scan_digits, scan_rest by (assumption || apply N_to_str_digits); reflexivity).
  destruct (N_to_str_nz vA Hv) as (c & r & E & Hc).
  destruct (nz_facts c Hc) as (Hcls & _). rewrite <- Hscan, E.
  destruct Hp as [->|(H1 & H2 & H3 & H4 & H5)]; cbn [app].
  - apply trim_nostrip. assumption.
  - apply trim_strip; auto.
Qed.

Lemma fmt7_rest v0 v1 v2 v3 v4 v5 v6 :
  fmt7 [v0; v1; v2; v3; v4; v5; v6] = N_to_str v0 ++ rest [(45, v1); (45, v2); (32, v3); (58, v4); (58, v5); (46, v6)].
Proof. unfold fmt7, rest, nthN. simpl. rewrite app_nil_r. reflexivity. Qed.

Lemma init_step_zero st lab : init_step st (lab, 0%Z) = st.
Proof. destruct st as [[lg sm] ng]. reflexivity. Qed.
Lemma init_step_first sm ng lab z : z <> 0%Z -> init_step (None, sm, ng) (lab, z) = (Some lab, Some lab, Z.ltb z 0).
Proof. intro H. unfold init_step. rewrite (proj2 (Z.eqb_neq z 0) H). reflexivity. Qed.
Lemma init_step_some lg sm ng lab z :
  init_step (Some lg, Some sm, ng) (lab, z) = (Some lg, Some (if Z.eqb z 0 then sm else lab), ng).
Proof. unfold init_step. destruct (Z.eqb z 0); reflexivity. Qed.

(* fields as the arguments give them (signed) and as they are stored and printed *)
Definition absl (lz : list (char * Z)) : list (char * N) := map (fun p => (fst p, Z.abs_N (snd p))) lz.

(* once the largest label is set, the smallest ends as the label of the last non-zero value: of the field
   trimr keeps last *)
Lemma init_tail lg ng lz : forall labs sm, length labs = length lz ->
  fold_left init_step (combine labs (map snd lz)) (Some lg, Some sm, ng)
  = (Some lg, Some (nth (length (trimr (absl lz))) (sm :: labs) []), ng).
Proof.
  induction lz as [|[s z] lz IH]; intros [|lab labs] sm H; try discriminate H; [reflexivity|].
  cbn [map snd combine fold_left]. rewrite init_step_some, IH by (injection H; trivial).
  cbn [absl map trimr fst snd]. fold (absl lz). destruct (trimr (absl lz)); [|reflexivity].
  replace (Z.abs_N z =? 0) with (z =? 0)%Z by lia. destruct (z =? 0)%Z; reflexivity.
Qed.

Lemma init_fold zA lz : zA <> 0%Z -> forall k labs, length labs = length (repeat 0%Z k ++ zA :: map snd lz) ->
  fold_left init_step (combine labs (repeat 0%Z k ++ zA :: map snd lz)) (None, None, false)
  = (Some (nth k labs []), Some (nth (k + length (trimr (absl lz))) labs []), Z.ltb zA 0).
Proof.
  intro HA. induction k as [|k IH]; intros [|lab labs] H; try discriminate H; injection H as H.
  - rewrite map_length in H. cbn [repeat app combine fold_left]. rewrite init_step_first, init_tail by assumption. reflexivity.
  - apply IH. assumption.
Qed.

Lemma first_nonzero_neg_zeros k zA zs : zA <> 0%Z -> first_nonzero_neg (repeat 0%Z k ++ zA :: zs) = Z.ltb zA 0.
Proof.
  intro HA. unfold first_nonzero_neg. induction k as [|k IH]; [|exact IH].
  cbn [repeat app filter]. replace (zA =? 0)%Z with false by lia. reflexivity.
Qed.

Lemma drop_lead0_zeros k zA zs : zA <> 0%Z -> forall i,
  drop_lead0 (label_from i (map Z.abs_N (repeat 0%Z k ++ zA :: zs))) = label_from (k + i) (map Z.abs_N (zA :: zs)).
Proof.
  intro HA. induction k as [|k IH]; intro i; cbn [repeat app map label_from drop_lead0].
  - replace (Z.abs_N zA =? 0) with false by lia. reflexivity.
  - change (Z.abs_N 0 =? 0) with true. rewrite IH, Nat.add_succ_r. reflexivity.
Qed.

Lemma denote_first k zA lz : zA <> 0%Z ->
  denote (repeat 0%Z k ++ zA :: map snd lz) 0 0 = IV (Z.ltb zA 0) (label_from k (Z.abs_N zA :: map snd (trimr (absl lz)))).
Proof.
  intro HA. unfold denote. change (negb (0 =? 0)%Z) with false. cbv iota.
  rewrite first_nonzero_neg_zeros, drop_lead0_zeros, Nat.add_0_r by assumption.
  cbn [map drop_trail0 label_from].
  replace (map Z.abs_N (map snd lz)) with (map snd (absl lz)) by (unfold absl; rewrite !map_map; reflexivity).
  rewrite <- trimr_drop_trail0.
  replace (Z.abs_N zA =? 0) with false by lia. destruct (trimr (absl lz)); reflexivity.
Qed.

(* the designator the model builds from the labels of the first and the last field reads back as their positions *)
Lemma unit_table i j : (i <= j <= 6)%nat ->
  let A := nth i labels [] in let B := nth j labels [] in
  let u := if negb (seqb A B) then A ++ [95] ++ B else A in
  nosp u = true /\ read_unit u = Some (i, j).
Proof.
  intro H. assert (Hb : ((j <=? 6) && (i <=? j))%nat = true) by lia. clear H.
  do 7 (destruct j as [|j]; [do 7 (destruct i as [|i]; [try discriminate Hb; vm_compute; auto|]); discriminate Hb|]).
  discriminate Hb.
Qed.

Lemma sign_app (b : bool) (X : str) : (if b then 45 :: X else X) = (if b then [45] else []) ++ X.
Proof. destruct b; reflexivity. Qed.

(* __init__: largest is the label of the first non-zero component, smallest that of the last one, the sign that of the first *)
Lemma init_first a k zA lz :
  a_quarters a = 0%Z -> a_weeks a = 0%Z -> zA <> 0%Z -> comps a = repeat 0%Z k ++ zA :: map snd lz ->
  init a = MkIState (map Z.abs_N (comps a)) (Some (nth k labels [])) (Some (nth (k + length (trimr (absl lz))) labels []))
                    (Z.ltb zA 0) None None.
Proof.
  intros Hq Hw HA Hc. pose proof (init_fold zA lz HA k labels) as Hi. rewrite <- Hc in Hi.
  unfold init. rewrite Hq, Hw, Hi; reflexivity.
Qed.

(* the last hypothesis is the layout of fmt7 at position k (fmt7_rest, by computation) *)
Lemma roundtrip_first d a k zA lz pre :
  pre_ok pre -> a_quarters a = 0%Z -> a_weeks a = 0%Z -> zA <> 0%Z ->
  comps a = repeat 0%Z k ++ zA :: map snd lz -> map fst (absl lz) = skipn k std_seps ->
  seqb (nth k labels []) (L "MICROSECOND") = false ->
  fmt7 (map Z.abs_N (comps a)) = pre ++ N_to_str (Z.abs_N zA) ++ rest (absl lz) ->
  read_interval d (interval_sql d a) = Some (denote (comps a) 0 0).
Proof.
  intros Hp Hq Hw HA Hc Hs Hk Hf.
  (* lz has 6 - k fields, their separators are standard ones, and trimr keeps the first m of them *)
  assert (Hlen : (k + length lz = 6)%nat).
  { pose proof (f_equal (@length _) Hc) as H. rewrite app_length, repeat_length in H. simpl in H. rewrite map_length in H. lia. }
  assert (Hl : seps_ok (absl lz)).
  { apply (Forall_map fst (fun c => in_sep4 c = true)). rewrite Hs. assert (H : Forall (fun c => in_sep4 c = true) std_seps) by (repeat constructor).
    rewrite <- (firstn_skipn k std_seps) in H. apply Forall_app in H. apply H. }
  set (l := absl lz) in *. set (m := length (trimr l)) in *.
  pose proof (trimr_firstn l) as Ht. fold m in Ht.
  assert (Hm : (m <= length lz)%nat).
  { pose proof (f_equal (@length _) Ht) as H. fold m in H. rewrite firstn_length in H. unfold l, absl in H. rewrite map_length in H. lia. }
  destruct (unit_table k (k + m)) as (Hu & Hr); [lia|].
  (* get_sql on the state __init__ leaves *)
  unfold interval_sql. rewrite (init_first a k zA lz), Hc, denote_first by assumption.
  unfold expr_unit. cbn [st_largest st_smallest st_negative st_quarters st_weeks st_vals ostr_eqb ostr].
  rewrite Hk.
  rewrite <- Hc, Hf, trim_fields, sign_app by (assumption || lia).
  apply (core d _ _ _ _ k (k + m)); try assumption.
  - left. lia.
  - apply seps_ok_trimr. assumption.
  - rewrite Ht, <- firstn_map, Hs. f_equal. lia.
Qed.

Lemma Z_to_str_sign q : q <> 0%Z -> Z_to_str q = (if (q <? 0)%Z then [45] else []) ++ N_to_str (Z.abs_N q).
Proof. destruct q; [congruence| |]; intros _; reflexivity. Qed.

(* a single signed number under a single label: quarters, weeks, and microseconds alone *)
Lemma single_ok d z u i : z <> 0%Z -> nosp u = true -> read_unit u = Some (i, i) ->
  read_interval d (wrap (template d) (Z_to_str z) u) = Some (IV (z <? 0)%Z [(i, Z.abs_N z)]).
Proof.
  intros Hz Hu Hr. rewrite Z_to_str_sign, <- (app_nil_r (N_to_str _)) by assumption.
  apply (core d _ _ [] u i i); trivial.
  - left. lia.
  - constructor.
  - rewrite Nat.sub_diag. reflexivity.
Qed.

Theorem interval_roundtrip d a :
  read_interval d (interval_sql d a) = Some (denote (comps a) (a_quarters a) (a_weeks a)).
Proof.
  (* read_unit gives QUARTER, WEEK and MICROSECOND the positions 7, 8 and 6 *)
  destruct (Z.eq_dec (a_quarters a) 0) as [Hq|Hq].
  2: { unfold interval_sql, init, denote. rewrite (proj2 (Z.eqb_neq _ _) Hq).
       exact (single_ok d _ (L "QUARTER") 7 Hq eq_refl eq_refl). }
  destruct (Z.eq_dec (a_weeks a) 0) as [Hw|Hw].
  2: { unfold interval_sql, init, denote. rewrite Hq, (proj2 (Z.eqb_neq _ _) Hw).
       exact (single_ok d _ (L "WEEK") 8 Hw eq_refl eq_refl). }
  rewrite Hq, Hw. destruct a as [z0 z1 z2 z3 z4 z5 z6 q w]. cbn [a_quarters a_weeks] in Hq, Hw.
  subst q w. set (T := [(45, z1); (45, z2); (32, z3); (58, z4); (58, z5); (46, z6)]).
  destruct (Z.eq_dec z0 0) as [->|H]. 2: { apply (roundtrip_first d _ 0 z0 T _ pre_ok0); trivial. apply fmt7_rest. }
  destruct (Z.eq_dec z1 0) as [->|H]. 2: { apply (roundtrip_first d _ 1 z1 (skipn 1 T) _ pre_ok1); trivial. apply fmt7_rest. }
  destruct (Z.eq_dec z2 0) as [->|H]. 2: { apply (roundtrip_first d _ 2 z2 (skipn 2 T) _ pre_ok2); trivial. apply fmt7_rest. }
  destruct (Z.eq_dec z3 0) as [->|H]. 2: { apply (roundtrip_first d _ 3 z3 (skipn 3 T) _ pre_ok3); trivial. apply fmt7_rest. }
  destruct (Z.eq_dec z4 0) as [->|H]. 2: { apply (roundtrip_first d _ 4 z4 (skipn 4 T) _ pre_ok4); trivial. apply fmt7_rest. }
  destruct (Z.eq_dec z5 0) as [->|H]. 2: { apply (roundtrip_first d _ 5 z5 (skipn 5 T) _ pre_ok5); trivial. apply fmt7_rest. }
  clear T.
  destruct (Z.eq_dec z6 0) as [->|H].
  - (* all arguments zero: closed terms *) destruct d; reflexivity.
  - (* only microseconds are non-zero: the dedicated branch of get_sql, which does not trim *)
    pose proof (single_ok d z6 (L "MICROSECOND") 6 H eq_refl eq_refl) as Hs. rewrite Z_to_str_sign in Hs by assumption.
    unfold interval_sql. rewrite (init_first _ 6 z6 []) by (assumption || reflexivity).
    etransitivity; [exact Hs|]. f_equal. symmetry. exact (denote_first 6 z6 [] H).
Qed.

(* the denotation keeps every component (specification-side sanity) *)
Fixpoint lookup (i : nat) (l : list (nat * N)) : N :=
  match l with
  | [] => 0
  | (k, v) :: r => if Nat.eqb k i then v else lookup i r
  end.

Lemma lookup_label_from_lt i k vs : (i < k)%nat -> lookup i (label_from k vs) = 0.
Proof.
  revert k. induction vs as [|v vs IH]; intros k H; simpl; [reflexivity|].
  destruct (Nat.eqb_spec k i); [lia|]. apply IH. lia.
Qed.

Lemma lookup_label_from k vs i : lookup (k + i) (label_from k vs) = nth i vs 0.
Proof.
  revert k i. induction vs as [|v vs IH]; intros k i; simpl.
  - destruct i; reflexivity.
  - destruct i as [|i].
    + rewrite Nat.add_0_r, Nat.eqb_refl. reflexivity.
    + destruct (Nat.eqb_spec k (k + S i)); [lia|]. replace (k + S i)%nat with (S k + i)%nat by lia. apply IH.
Qed.

Lemma lookup_drop_lead0 i k vs : lookup i (drop_lead0 (label_from k vs)) = lookup i (label_from k vs).
Proof.
  revert k. induction vs as [|v vs IH]; intro k; [reflexivity|]. simpl.
  destruct (N.eqb_spec v 0) as [->|Hv]; [|reflexivity].
  rewrite IH. destruct (Nat.eqb_spec k i) as [->|]; [|reflexivity].
  apply lookup_label_from_lt. lia.
Qed.

Lemma lookup_drop_trail0 i l : lookup i (drop_trail0 l) = lookup i l.
Proof.
  induction l as [|[k v] l IH]; [reflexivity|]. simpl. destruct (drop_trail0 l).
  - simpl in IH. destruct (N.eqb_spec v 0) as [->|Hv]; simpl; rewrite <- IH; destruct (Nat.eqb k i); reflexivity.
  - rewrite <- IH. reflexivity.
Qed.

Definition ival_component (iv : ival) (i : nat) : N := match iv with IV _ fs => lookup i fs end.
Definition ival_neg (iv : ival) : bool := match iv with IV n _ => n end.

Lemma denote_components zs i :
  ival_component (denote zs 0 0) i = nth i (map Z.abs_N zs) 0.
Proof.
  unfold denote. change (negb (0 =? 0)%Z) with false. cbv iota.
  pose proof (lookup_drop_trail0 i (drop_lead0 (label_from 0 (map Z.abs_N zs)))) as H.
  rewrite lookup_drop_lead0 in H. rewrite (lookup_label_from 0 _ i) in H.
  destruct (drop_trail0 (drop_lead0 (label_from 0 (map Z.abs_N zs)))); [|exact H].
  (* nothing is left: the zero interval is denoted as 0 DAY, position 2 *)
  simpl in H. unfold ival_component, lookup. rewrite <- H. destruct (Nat.eqb 2 i); reflexivity.
Qed.
