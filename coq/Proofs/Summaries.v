(* Proofs/Summaries.v — three facts that make the sweeps over the effect summaries of Gen/Effects.v (C01, C02) cheap to evaluate.
   (1) Model.Effects.closure unfolds the helpers a method calls on self to depth FUEL, a helper anew at every place it is called: the closure
       of a method that calls itself more than once is exponential in FUEL (ValueWrapper.get_formatted_value).  Whether ALL effects of a closure pass a
       test that does not look at what `rebase` changes can be answered fuel by fuel from a table with one entry per callee (all_in_level),
       one table per class (all_in_table; all_renders_by_tables is the sweep of C02).
   (2) Model.Effects.resolve looks up the bases of the class among all classes at every call; it unfolds to first_meth applied to the mro,
       which a sweep can bind once per class.
   (3) The names of the mutating methods (mut_names classes), which every sweep consults, are evaluated once, class by class from the
       tables of (1) (mutators, mut_names_eq). *)
From PT Require Import Base.Str Model.Effects Gen.Effects.
Open Scope N_scope.

Lemma mem_In x l : In x l -> mem x l = true.
Proof. intro H. apply existsb_exists. exists x. split; [exact H | apply seqb_refl]. Qed.

Lemma mem_filter f x l : mem x (filter f l) = mem x l && f x.
Proof.
  unfold mem. rewrite existsb_filter, andb_comm, <- existsb_andb_l. apply existsb_ext. intro a.
  destruct (seqb x a) eqn:E; [apply seqb_eq in E; subst a; reflexivity | rewrite !andb_false_r; reflexivity].
Qed.

Fixpoint assoc {X} (n : str) (t : list (str * X)) : option X :=
  match t with [] => None | (k, x) :: r => if seqb n k then Some x else assoc n r end.

Lemma assoc_map {X Y} (g : X -> Y) (t : list (str * X)) n : assoc n (map (fun e => (fst e, g (snd e))) t) = option_map g (assoc n t).
Proof. induction t as [|[k x] t IH]; [reflexivity|]. cbn [map assoc fst snd]. destruct (seqb n k); [reflexivity | exact IH]. Qed.
Lemma assoc_keys {X} (h : str -> X) names n x : assoc n (map (fun k => (k, h k)) names) = Some x -> x = h n.
Proof.
  induction names as [|k names IH]; [discriminate|]. cbn [map assoc]. destruct (seqb n k) eqn:E; [|exact IH].
  apply seqb_eq in E. subst k. intros [= <-]. reflexivity.
Qed.

Section Levels.
Variables (classes : list classrec) (c : classrec) (P : effect -> bool).
Hypothesis P_rebase : forall m g e, P (rebase m g e) = P e.

Definition all_in (f : nat) (effs : list effect) : bool := forallb P (closure classes f c effs).

(* the answer A for the body of a resolved callee (a builder called on self works on its own copy and is not unfolded) *)
Definition callee_ok (A : list effect -> bool) (r : option methrec) : bool :=
  match r with Some m => m_builder m || A (m_effects m) | None => true end.
Definition step_ok (B : str -> bool) (e : effect) : bool := P e && match e with ECallSelf n _ => B n | _ => true end.

(* rebase rewrites stores only, and closure unfolds calls only *)
Lemma all_in_rebase f m g effs : all_in f (map (rebase m g) effs) = all_in f effs.
Proof.
  unfold all_in. destruct f as [|f]; cbn [closure].
  - rewrite forallb_map. apply forallb_ext. intro e. apply P_rebase.
  - rewrite !forallb_flat_map, forallb_map. apply forallb_ext. intro e.
    pose proof (P_rebase m g e) as H. destruct e as [[|x] [|? ?] ? ? ?| | | | |]; cbn [rebase] in *; cbn [forallb]; rewrite ?H; reflexivity.
Qed.

Lemma all_in_S f effs : all_in (S f) effs = forallb (step_ok (fun n => callee_ok (all_in f) (resolve classes c n))) effs.
Proof.
  unfold all_in at 1. cbn [closure]. rewrite forallb_flat_map. apply forallb_ext. intro e. unfold step_ok, callee_ok.
  destruct e as [| | | |n g|]; cbn [forallb]; try reflexivity.
  destruct (resolve classes c n) as [m|]; cbn [forallb]; [|reflexivity].
  destruct (m_builder m); cbn [forallb orb]; [reflexivity|].
  fold (all_in f (map (rebase m g) (m_effects m))). rewrite all_in_rebase. reflexivity.
Qed.

(* rs: the names that are called, each resolved once.  level rs f: their answers at fuel f, from the answers at fuel f - 1.
   A name the table does not hold is answered the long way, so that nothing need be shown of which names rs holds. *)
Definition look (f : nat) (t : list (str * bool)) (n : str) : bool :=
  match assoc n t with Some b => b | None => callee_ok (all_in f) (resolve classes c n) end.
Fixpoint level (rs : list (str * option methrec)) (f : nat) : list (str * bool) :=
  match f with
  | O => map (fun e => (fst e, callee_ok (forallb P) (snd e))) rs
  | S f' => let t := level rs f' in map (fun e => (fst e, callee_ok (forallb (step_ok (look f' t))) (snd e))) rs
  end.

Lemma look_level names f n : look f (level (map (fun k => (k, resolve classes c k)) names) f) n = callee_ok (all_in f) (resolve classes c n).
Proof.
  revert n. induction f as [|f IH]; intro n; unfold look; cbn [level]; rewrite assoc_map;
    destruct (assoc n _) as [r|] eqn:E; try reflexivity; apply assoc_keys in E; subst r; cbn [option_map]; [reflexivity|].
  unfold callee_ok. destruct (resolve classes c n) as [m|]; [|reflexivity]. f_equal.
  rewrite all_in_S. apply forallb_ext. intro e. unfold step_ok. destruct e; try reflexivity. rewrite IH. reflexivity.
Qed.

Theorem all_in_level names f effs :
  all_in (S f) effs = let t := level (map (fun k => (k, resolve classes c k)) names) f in forallb (step_ok (look f t)) effs.
Proof.
  cbv zeta. rewrite all_in_S. apply forallb_ext. intro e. unfold step_ok. destruct e; try reflexivity. rewrite look_level. reflexivity.
Qed.

End Levels.

Definition first_meth (l : list classrec) (n : str) : option methrec :=
  match flat (map (fun k => match find_meth k n with Some m => [m] | None => [] end) l) with m :: _ => Some m | [] => None end.

(* the names called on self anywhere in the classes a method of c may come from *)
Definition callees (l : list classrec) : list str :=
  flat (map (fun k => flat (map (fun m => flat (map (fun e => match e with ECallSelf n _ => [n] | _ => [] end) (m_effects m))) (c_methods k))) l).

(* all_in at FUEL = S (pred FUEL) through the table of the class *)
Definition all_in_table (classes : list classrec) (c : classrec) (P : effect -> bool) : list effect -> bool :=
  let l := mro classes c in let t := level classes c P (map (fun k => (k, first_meth l k)) (callees l)) (pred FUEL) in
  fun effs => forallb (step_ok P (look classes c P (pred FUEL) t)) effs.

Lemma all_in_table_eq cl c P effs : (forall m g e, P (rebase m g e) = P e) -> all_in_table cl c P effs = forallb P (closure cl FUEL c effs).
Proof. intro H. symmetry. exact (all_in_level cl c P H _ (pred FUEL) effs). Qed.

Lemma render_ok_rebase mn c m g e : render_ok_eff classes mn c (rebase m g e) = render_ok_eff classes mn c e.
Proof. destruct e as [[|x] [|? ?] ? ? ?| | | | |]; reflexivity. Qed.

(* the methods of c that are not builders and write to self, from one table of c; n mutates when some class lists it *)
Definition mutators (cl : list classrec) (c : classrec) : list str :=
  let no_write := all_in_table cl c (fun e => negb (writes_self e)) in
  filter (fun n => match find_meth c n with Some m => negb (m_builder m) && negb (no_write (m_effects m)) | None => false end) (map m_name (c_methods c)).

Lemma mem_mutators cl c n :
  mem n (mutators cl c) =
  match find_meth c n with Some m => negb (m_builder m) && existsb writes_self (closure cl FUEL c (m_effects m)) | None => false end.
Proof.
  unfold mutators. rewrite mem_filter. destruct (find_meth c n) as [m|] eqn:E; [|apply andb_false_r].
  apply find_some in E. destruct E as [Hm En]. apply seqb_eq in En. subst n. rewrite (mem_In _ _ (in_map m_name _ _ Hm)).
  rewrite all_in_table_eq, forallb_negb, negb_involutive; [reflexivity|].
  intros m' g e. destruct e as [[|x] [|? ?] ? ? ?| | | | |]; reflexivity.
Qed.

Definition mut_names_by_class (cl : list classrec) : list str :=
  let M := flat (map (mutators cl) cl) in filter (fun n => mem n M) (all_method_names cl).

Lemma mut_names_eq cl : mut_names cl = mut_names_by_class cl.
Proof.
  apply filter_ext. intro n. unfold mem at 1. rewrite existsb_flat_map. apply existsb_ext. intro c. symmetry. apply mem_mutators.
Qed.

Definition mutating : list str := Eval vm_compute in mut_names_by_class classes.

Lemma mut_names_classes : mut_names classes = mutating.
Proof. rewrite mut_names_eq. vm_compute. reflexivity. Qed.

Lemma all_renders_by_tables :
  all_renders_ok classes =
  forallb (fun c => is_parameterizer c ||
                    let ok := all_in_table classes c (render_ok_eff classes mutating c) in forallb (fun m => ok (m_effects m)) (render_methods c)) classes.
Proof.
  unfold all_renders_ok. rewrite mut_names_classes. apply forallb_ext. intro c. f_equal. apply forallb_ext. intro m.
  symmetry. apply all_in_table_eq, render_ok_rebase.
Qed.
