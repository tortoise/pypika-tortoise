(* Proofs/Post.v — rules for the computations of Model.Render (a result or an exception, threading the parameterizer).
   post Q m: if m succeeds, its value and the parameterizer state it leaves satisfy Q.  A statement of the form
   "forall a p, m = Ok (a, p) -> .." IS such a postcondition, so the rules apply to it as it stands.
   bind_map, bind_map_cong: the equational rules, for two computations that make the same binds and differ in the text they return. *)
From PT Require Import Base.Str Model.Render.

Definition post {A} (Q : A -> pz -> Prop) (m : res (A * pz)) : Prop := forall a p, m = Ok (a, p) -> Q a p.

Lemma post_ret {A} (Q : A -> pz -> Prop) a p : Q a p -> post Q (Ok (a, p)).
Proof. intros H a' p' E. inversion E; subst. exact H. Qed.

Lemma post_bind {A B} (Q1 : A -> pz -> Prop) (Q : B -> pz -> Prop) (m : res (A * pz)) (k : A -> pz -> res (B * pz)) :
  post Q1 m -> (forall a p, Q1 a p -> post Q (k a p)) -> post Q (do (a, p) <- m; k a p).
Proof. intros Hm Hk b p' E. destruct m as [[a p]|e]; [|discriminate E]. exact (Hk a p (Hm a p eq_refl) b p' E). Qed.

Lemma post_self {A} (m : res (A * pz)) : post (fun a p => m = Ok (a, p)) m.
Proof. intros a p E. exact E. Qed.

Lemma post_true {A} (m : res (A * pz)) : post (fun _ _ => True) m.
Proof. intros a p _. exact I. Qed.

Lemma bind_map {A} (f : str -> str) (m : res (A * pz)) (k1 k2 : A -> pz -> res (str * pz)) :
  (forall x p1, k1 x p1 = match k2 x p1 with Ok (s, p') => Ok (f s, p') | Exn e => Exn e end) ->
  (do (x, p1) <- m; k1 x p1) = match (do (x, p1) <- m; k2 x p1) with Ok (s, p') => Ok (f s, p') | Exn e => Exn e end.
Proof. intro H. destruct m as [[x p1]|e]; [apply H | reflexivity]. Qed.

(* ... and for two that differ in their last computation as well *)
Lemma bind_map_cong {A} f (m m' : res (A * pz)) (k1 k2 : A -> pz -> res (str * pz)) :
  m = m' -> (forall x p1, k1 x p1 = do (s, p') <- k2 x p1; Ok (f s, p')) ->
  (do (x, p1) <- m; k1 x p1) = do (s, p') <- (do (x, p1) <- m'; k2 x p1); Ok (f s, p').
Proof. intros <-. apply bind_map. Qed.
